(* RegistryProofs.v — C11: after any history of Add / Remove / Route / RemoveRoute /
   Handle the container answers like a freshly built one with the same content, and Add
   never panics for pairwise different roots.  Which patterns the mux holds is a function of the
   registered roots and the plain handlers ([mux_ok]); every operation keeps it so ([cs_inv]); and
   what the mux answers depends on the patterns it holds, not on the order they came in.  At the end: a history with
   refused calls is the history without them. *)
From Model Require Import Str Http Table Registry.
From Proofs Require Import StrFacts.
From Coq Require Import Lia.

(* the mux as a finite map: lookups depend only on which (pattern, target) pairs it holds *)
Definition keys_unique (m : mux) : Prop := forall p t1 t2, In (p, t1) m -> In (p, t2) m -> t1 = t2.
Definition mux_equiv (m1 m2 : mux) : Prop := forall e, In e m1 <-> In e m2.

Lemma mux_has_In m p : mux_has m p = true <-> exists t, In (p, t) m.
Proof.
  unfold mux_has. rewrite existsb_str_eqb. split; [intros ([q t] & Hin & <-)|intros (t & Hin); exists (p, t)]; eauto.
Qed.

Lemma mux_has_equiv m1 m2 p : mux_equiv m1 m2 -> mux_has m1 p = mux_has m2 p.
Proof. intros H. apply eq_true_iff_eq. rewrite !mux_has_In. split; intros (t & Ht); exists t; now apply H. Qed.

Lemma mux_handle_spec m p t m' :
  mux_handle m p t = Some m' -> mux_has m p = false /\ m' = m ++ [(p, t)].
Proof.
  unfold mux_handle. destruct p; [discriminate|]. destruct (mux_has m (a :: p)); [discriminate|].
  intros H; injection H as <-. auto.
Qed.

Lemma find_exact_spec (m : mux) path :
  match find (fun e => str_eqb (fst e) path) m with
  | Some e => In e m /\ fst e = path
  | None => forall t, ~ In (path, t) m
  end.
Proof.
  destruct (find (fun e => str_eqb (fst e) path) m) as [e|] eqn:E.
  - apply find_some in E as [H1 H2]. apply str_eqb_eq in H2. auto.
  - intros t Hin. pose proof (find_none _ _ E _ Hin) as H. cbn in H. now rewrite str_eqb_refl in H.
Qed.

(* the second half of ServeMux.match, under names of its own *)
Definition cand (path : str) (e : str * target) : bool := ends_with_slash (fst e) && has_prefix path (fst e).

Definition lstep (path : str) (best : option (str * target)) (e : str * target) : option (str * target) :=
  if cand path e && match best with None => true | Some b => Nat.ltb (length (fst b)) (length (fst e)) end
  then Some e else best.
Definition longest (m : mux) (path : str) : option (str * target) := fold_left (lstep path) m None.

Lemma mux_match_longest m path :
  mux_match m path = match find (fun e => str_eqb (fst e) path) m with Some e => Some e | None => longest m path end.
Proof. reflexivity. Qed.

Lemma lstep_argmax path b e : lstep path b e = argmax_step (cand path) (fun e => Z.of_nat (length (fst e))) b e.
Proof.
  unfold lstep, argmax_step. destruct b as [x|]; [|reflexivity].
  replace (Z.ltb _ _) with (Nat.ltb (length (fst x)) (length (fst e))); [reflexivity|].
  apply eq_true_iff_eq. rewrite Nat.ltb_lt, Z.ltb_lt. lia.
Qed.

Lemma longest_spec (m : mux) path :
  match longest m path with
  | Some e => In e m /\ cand path e = true /\
              (forall e', In e' m -> cand path e' = true -> length (fst e') <= length (fst e))
  | None => forall e', In e' m -> cand path e' = false
  end.
Proof.
  pose proof (argmax_spec _ _ _ (lstep_argmax path) m) as H. unfold longest.
  destruct (fold_left (lstep path) m None) as [e|]; [|exact H].
  destruct H as (Hin & C & Hmax). split; [exact Hin|]. split; [exact C|]. intros e' Hin' C'. now apply Nat2Z.inj_le, Hmax.
Qed.

Lemma prefix_same_length (path a b : str) :
  has_prefix path a = true -> has_prefix path b = true -> length a = length b -> a = b.
Proof.
  intros (ta & ->)%has_prefix_spec (tb & E)%has_prefix_spec Hl.
  rewrite <- (firstn_app_l a ta), E, Hl. apply firstn_app_l.
Qed.

Lemma mux_match_equiv m1 m2 path :
  mux_equiv m1 m2 -> keys_unique m2 ->
  option_map snd (mux_match m1 path) = option_map snd (mux_match m2 path).
Proof.
  intros He K2. rewrite !mux_match_longest.
  pose proof (find_exact_spec m1 path) as F1. pose proof (find_exact_spec m2 path) as F2.
  destruct (find (fun e => str_eqb (fst e) path) m1) as [[p1 t1]|];
  destruct (find (fun e => str_eqb (fst e) path) m2) as [[p2 t2]|]; cbn [fst] in *.
  - destruct F1 as [I1 ->], F2 as [I2 ->]. apply He in I1. cbn. f_equal. eapply K2; eauto.
  - destruct F1 as [I1 ->]. apply He in I1. now contradiction (F2 t1).
  - destruct F2 as [I2 ->]. apply He in I2. now contradiction (F1 t2).
  - pose proof (longest_spec m1 path) as L1. pose proof (longest_spec m2 path) as L2.
    destruct (longest m1 path) as [[p1 t1]|], (longest m2 path) as [[p2 t2]|]; cbn [option_map snd]; try reflexivity.
    + destruct L1 as (I1 & C1 & M1), L2 as (I2 & C2 & M2).
      assert (Hlen : length p1 = length p2).
      { pose proof (M1 _ (proj2 (He _) I2) C2). pose proof (M2 _ (proj1 (He _) I1) C1). cbn in *. lia. }
      unfold cand in C1, C2. cbn [fst] in *. apply andb_true_iff in C1 as [_ C1], C2 as [_ C2].
      pose proof (prefix_same_length path p1 p2 C1 C2 Hlen). subst p2. f_equal. apply He in I1. eapply K2; eauto.
    + destruct L1 as (I1 & C1 & _). apply He in I1. rewrite (L2 _ I1) in C1. discriminate.
    + destruct L2 as (I2 & C2 & _). apply He in I2. rewrite (L1 _ I2) in C2. discriminate.
Qed.

Lemma mux_serve_equiv m1 m2 url :
  mux_equiv m1 m2 -> keys_unique m2 -> mux_serve m1 url = mux_serve m2 url.
Proof.
  intros He K2. unfold mux_serve. rewrite !(mux_has_equiv m1 m2 _ He).
  destruct (negb (mux_has m2 (clean_path url)) && mux_has m2 (clean_path url ++ [slash]) && negb (ends_with_slash (clean_path url))); [reflexivity|].
  destruct (negb (str_eqb (clean_path url) url)); [reflexivity|].
  pose proof (mux_match_equiv m1 m2 url He K2) as H.
  destruct (mux_match m1 url) as [[p1 t1]|], (mux_match m2 url) as [[p2 t2]|]; cbn in H; try discriminate; try reflexivity.
  now injection H as ->.
Qed.

(* which patterns a list of registered roots puts on the mux: the services are mapped one after the other
   until one of them sits on "/" *)
Definition is_rootpat (root : str) : bool :=
  let p := fixed_prefix root in str_eqb p [slash] || str_eqb p [].

Fixpoint nonroot_prefix (reg : list str) : list str :=
  match reg with
  | [] => []
  | r :: rest => if is_rootpat r then [] else r :: nonroot_prefix rest
  end.
Definition has_rootsvc (reg : list str) : bool := existsb is_rootpat reg.

(* the specification of the mux content for registered roots [reg] and plain handlers [plain] *)
Definition mux_spec (reg : list str) (plain : list (str * Z)) (e : str * target) : Prop :=
  (snd e = TDispatch /\ ((fst e = [slash] /\ has_rootsvc reg = true) \/ pattern_mapped (fst e) (nonroot_prefix reg) = true))
  \/ (exists id, snd e = TPlain id /\ In (fst e, id) plain).

Record mux_ok (m : mux) (isroot : bool) (reg : list str) (plain : list (str * Z)) : Prop := {
  mo_spec : forall e, In e m <-> mux_spec reg plain e;
  mo_keys : keys_unique m;
  mo_root : isroot = has_rootsvc reg
}.

(* the specification read as a set of keys: [dpat reg] says which patterns dispatch, [plain] lists the others.
   The lemmas about the mux are stated in this form; [mux_ok], which [cs_inv] mentions, is reached through [mux_ok_is]. *)
Definition dpat (reg : list str) (q : str) : bool :=
  (str_eqb [slash] q && has_rootsvc reg) || pattern_mapped q (nonroot_prefix reg).
Definition holds (D : str -> bool) (plain : list (str * Z)) (e : str * target) : Prop :=
  match snd e with TDispatch => D (fst e) = true | TPlain id => In (fst e, id) plain end.
(* [m] holds the dispatch patterns [D] and the plain handlers [plain], no pattern twice *)
Definition mux_is (m : mux) (D : str -> bool) (plain : list (str * Z)) : Prop :=
  (forall e, In e m <-> holds D plain e) /\ keys_unique m.

Lemma mux_spec_holds reg plain e : mux_spec reg plain e <-> holds (dpat reg) plain e.
Proof.
  unfold mux_spec, holds, dpat. destruct e as [q [|id]]; cbn [fst snd].
  - rewrite orb_true_iff, andb_true_iff, str_eqb_eq.
    split; [intros [[_ [[-> H]|H]]|(id & F & _)]; [auto|auto|discriminate]|intros [[<- H]|H]; auto].
  - split; [intros [[F _]|(id0 & [= ->] & H)]; [discriminate|exact H]|eauto].
Qed.

Lemma mux_ok_is m b reg plain : mux_ok m b reg plain <-> mux_is m (dpat reg) plain /\ b = has_rootsvc reg.
Proof.
  split.
  - intros [Hspec K Hroot]. split; [split; [|exact K]|exact Hroot]. intros e. rewrite Hspec. apply mux_spec_holds.
  - intros [[Hin K] Hroot]. constructor; auto. intros e. rewrite Hin. symmetry. apply mux_spec_holds.
Qed.

Lemma mux_is_empty : mux_is [] (dpat []) [].
Proof.
  split; [|intros p t1 t2 []]. intros [q [|id]]; unfold holds, dpat; cbn; [now rewrite andb_false_r|reflexivity].
Qed.

Lemma mux_is_ext m D D' plain : (forall q, D q = D' q) -> mux_is m D plain -> mux_is m D' plain.
Proof. intros H [Hin K]. split; [|exact K]. intros e. rewrite Hin. unfold holds. destruct (snd e); [now rewrite H|reflexivity]. Qed.

Lemma nonroot_prefix_app a b :
  nonroot_prefix (a ++ b) = if has_rootsvc a then nonroot_prefix a else a ++ nonroot_prefix b.
Proof.
  unfold has_rootsvc. induction a as [|x a IH]; cbn; [reflexivity|]. destruct (is_rootpat x); cbn; [reflexivity|].
  rewrite IH. now destruct (existsb is_rootpat a).
Qed.
Lemma nonroot_prefix_noroot reg : has_rootsvc reg = false -> nonroot_prefix reg = reg.
Proof. intros H. rewrite <- (app_nil_r reg) at 1. rewrite nonroot_prefix_app, H. apply app_nil_r. Qed.
Lemma nonroot_prefix_incl reg x : In x (nonroot_prefix reg) -> In x reg.
Proof. induction reg as [|y reg IH]; cbn; [auto|]. destruct (is_rootpat y); [intros []|]. intros [H|H]; auto. Qed.
Lemma has_rootsvc_app a b : has_rootsvc (a ++ b) = has_rootsvc a || has_rootsvc b.
Proof. apply existsb_app. Qed.

Lemma pattern_mapped_app p a b : pattern_mapped p (a ++ b) = pattern_mapped p a || pattern_mapped p b.
Proof. unfold pattern_mapped. apply existsb_app. Qed.

Lemma dpat_noroot reg q : has_rootsvc reg = false -> dpat reg q = pattern_mapped q reg.
Proof. intros H. unfold dpat. now rewrite H, andb_false_r, nonroot_prefix_noroot. Qed.

(* what one service claims: "/", or its fixed prefix p and, unless p ends in a slash, p/ *)
Lemma dpat_single r q :
  dpat [r] q = if is_rootpat r then str_eqb [slash] q
               else str_eqb (fixed_prefix r) q || (negb (ends_with_slash (fixed_prefix r)) && str_eqb (fixed_prefix r ++ [slash]) q).
Proof.
  unfold dpat, has_rootsvc, pattern_mapped. cbn [existsb nonroot_prefix]. destruct (is_rootpat r); cbn [orb existsb].
  - rewrite andb_true_r. apply orb_false_r.
  - now rewrite andb_false_r, orb_false_r.
Qed.

(* the roots of [b] count only if no service of [a] sits on "/" *)
Lemma dpat_app a b q : dpat (a ++ b) q = dpat a q || (negb (has_rootsvc a) && dpat b q).
Proof.
  destruct (has_rootsvc a) eqn:H; cbn [negb andb].
  - unfold dpat. now rewrite has_rootsvc_app, nonroot_prefix_app, H, orb_false_r.
  - rewrite (dpat_noroot a q H). unfold dpat. rewrite has_rootsvc_app, nonroot_prefix_app, H, pattern_mapped_app. cbn [orb].
    rewrite !orb_assoc. f_equal. apply orb_comm.
Qed.

Lemma ends_with_slash_app s : ends_with_slash (s ++ [slash]) = true.
Proof. unfold ends_with_slash. rewrite rev_app_distr. reflexivity. Qed.

(* isPatternMapped says yes only to the fixed prefix of a mapped root, or to that prefix with a slash *)
Lemma pattern_mapped_true q l :
  pattern_mapped q l = true -> exists r, In r l /\ (fixed_prefix r = q \/ fixed_prefix r ++ [slash] = q).
Proof.
  unfold pattern_mapped. intros (r & Hin & H)%existsb_exists. exists r. split; [exact Hin|].
  apply orb_true_iff in H as [H|[_ H]%andb_true_iff]; apply str_eqb_eq in H; auto.
Qed.

Lemma pattern_mapped_slash l : has_rootsvc l = false -> pattern_mapped [slash] l = false.
Proof.
  intros Hl. destruct (pattern_mapped [slash] l) eqn:E; [|reflexivity]. apply pattern_mapped_true in E as (r & Hin & H).
  rewrite <- Hl. symmetry. apply existsb_exists. exists r. split; [exact Hin|]. unfold is_rootpat.
  destruct H as [->|H]; [reflexivity|]. destruct (fixed_prefix r) as [|c [|]]; [reflexivity|discriminate|discriminate].
Qed.

Lemma plain_compatible_spec roots p r :
  plain_compatible roots p = true -> In r roots ->
  p <> [] /\ p <> [slash] /\ fixed_prefix r <> p /\ fixed_prefix r ++ [slash] <> p.
Proof.
  unfold plain_compatible. intros [[H1 H2]%andb_true_iff H3]%andb_true_iff Hin.
  rewrite forallb_forall in H3. apply H3 in Hin as [H3' H4]%andb_true_iff.
  repeat split; intros E; subst.
  - discriminate.
  - discriminate.
  - now rewrite str_eqb_refl in H3'.
  - now rewrite str_eqb_refl in H4.
Qed.

(* a compatible pattern may be handed to Container.Handle whatever services are registered *)
Lemma dpat_compatible roots reg p :
  plain_compatible roots p = true -> (forall x, In x reg -> In x roots) -> p <> [] /\ dpat reg p = false.
Proof.
  intros Hc Hsub. split; [now intros ->|]. unfold dpat.
  destruct (pattern_mapped p (nonroot_prefix reg)) eqn:E.
  - apply pattern_mapped_true in E as (r & Hin%nonroot_prefix_incl%Hsub & H).
    destruct (plain_compatible_spec roots p r Hc Hin) as (_ & _ & A & B). destruct H; contradiction.
  - destruct (str_eqb_spec [slash] p) as [<-|]; [discriminate Hc|reflexivity].
Qed.

(* what a new dispatch pattern and a new plain handler do to the content *)
Lemma holds_dispatch D D' plain q e :
  (forall x, D' x = D x || str_eqb q x) -> holds D' plain e <-> holds D plain e \/ e = (q, TDispatch).
Proof.
  intros HD'. destruct e as [x [|i]]; unfold holds; cbn [fst snd].
  - rewrite HD', orb_true_iff, str_eqb_eq. split; (intros [H|H]; [now left|right; congruence]).
  - split; [now left|intros [H|H]; [exact H|discriminate]].
Qed.

Lemma holds_plain D plain p id e : holds D (plain ++ [(p, id)]) e <-> holds D plain e \/ e = (p, TPlain id).
Proof.
  destruct e as [x [|i]]; unfold holds; cbn [fst snd].
  - split; [now left|intros [H|H]; [exact H|discriminate]].
  - rewrite in_app_iff. cbn. split; (intros [H|H]; [now left|right]); [destruct H as [H|[]]|left]; congruence.
Qed.

(* ServeMux.Handle with a pattern that is not a key of the mux *)
Lemma mux_is_insert m D plain D' plain' p t :
  mux_is m D plain -> p <> [] -> D p = false -> ~ In p (map fst plain) ->
  (forall e, holds D' plain' e <-> holds D plain e \/ e = (p, t)) ->
  mux_handle m p t = Some (m ++ [(p, t)]) /\ mux_is (m ++ [(p, t)]) D' plain'.
Proof.
  intros [Hin K] Hne HD Hpl Hnew.
  assert (Hp : forall t', ~ In (p, t') m).
  { intros [|id] H%Hin; unfold holds in H; cbn [fst snd] in H; [congruence|apply Hpl, (in_map fst _ _ H)]. }
  split; [|split].
  - unfold mux_handle. destruct p; [congruence|]. destruct (mux_has m _) eqn:E; [|reflexivity].
    apply mux_has_In in E as (t' & Ht). now apply Hp in Ht.
  - intros e. rewrite Hnew, in_app_iff, Hin. cbn. split; [intros [H|[<-|[]]]|intros [H| ->]]; auto.
  - intros q t1 t2 [H1|[H1|[]]]%in_app_iff [H2|[H2|[]]]%in_app_iff.
    + eapply K; eauto.
    + injection H2 as <- <-. now apply Hp in H1.
    + injection H1 as <- <-. now apply Hp in H2.
    + congruence.
Qed.

(* addHandler's step: ServeMux.Handle with a dispatch pattern unless [D] has it already *)
Lemma register_ok D D' plain (m : mux) q :
  mux_is m D plain -> (forall x, D' x = D x || str_eqb q x) -> q <> [] -> ~ In q (map fst plain) ->
  exists m', (if D q then Some m else mux_handle m q TDispatch) = Some m' /\ mux_is m' D' plain.
Proof.
  intros Hm HD' Hne Hpl. destruct (D q) eqn:Eq.
  - exists m. split; [reflexivity|]. apply (mux_is_ext m D); [|exact Hm]. intros x. rewrite HD'.
    destruct (str_eqb_spec q x) as [<-|]; [now rewrite Eq|now rewrite orb_false_r].
  - eexists. apply (mux_is_insert m D plain _ _ q TDispatch Hm Hne Eq Hpl). intros e. apply holds_dispatch, HD'.
Qed.

(* Container.Handle's step: ServeMux.Handle with a plain handler on a pattern that is no key *)
Lemma handle_plain_ok m D plain p id :
  mux_is m D plain -> p <> [] -> D p = false -> ~ In p (map fst plain) ->
  mux_handle m p (TPlain id) = Some (m ++ [(p, TPlain id)]) /\ mux_is (m ++ [(p, TPlain id)]) D (plain ++ [(p, id)]).
Proof. intros Hm Hne HD Hpl. apply (mux_is_insert m D plain _ _ p _ Hm Hne HD Hpl), holds_plain. Qed.

(* addHandler while no service sits on "/": the mux does not panic, provided no plain handler sits on a pattern the
   services claim *)
Lemma add_handler_ok m reg plain r :
  mux_is m (dpat reg) plain -> has_rootsvc reg = false ->
  (forall q, In q (map fst plain) -> dpat (reg ++ [r]) q = false) ->
  exists m', add_handler r m reg = Some (m', is_rootpat r) /\ mux_is m' (dpat (reg ++ [r])) plain.
Proof.
  intros Hm Hroot Hpl.
  unfold add_handler. change (str_eqb (fixed_prefix r) [slash] || str_eqb (fixed_prefix r) []) with (is_rootpat r).
  set (p := fixed_prefix r).
  assert (HD : forall x, dpat (reg ++ [r]) x =
                         dpat reg x || if is_rootpat r then str_eqb [slash] x
                                       else str_eqb p x || (negb (ends_with_slash p) && str_eqb (p ++ [slash]) x))
    by (intros x; now rewrite dpat_app, Hroot, dpat_single).
  assert (Hfree : forall q, dpat (reg ++ [r]) q = true -> ~ In q (map fst plain))
    by (intros q Hq Hi; apply Hpl in Hi; congruence).
  destruct (is_rootpat r) eqn:Eroot.
  - (* the service sits on "/" *)
    destruct (register_ok _ _ plain m [slash] Hm HD) as (m' & E & Hm'); [discriminate|apply Hfree; rewrite HD; apply orb_true_r|].
    rewrite (dpat_noroot reg _ Hroot), (pattern_mapped_slash reg Hroot) in E. rewrite E. eauto.
  - (* an ordinary prefix p: p is registered, and p/ too unless p ends in a slash *)
    pose proof Eroot as [_ Hpne%str_eqb_neq]%orb_false_iff.
    rewrite <- (dpat_noroot reg p Hroot).
    destruct (register_ok _ _ plain m p Hm (fun x => eq_refl) Hpne) as (m1 & -> & Hm1);
      [apply Hfree; now rewrite HD, str_eqb_refl, !orb_true_r|].
    destruct (ends_with_slash p) eqn:Es; cbn [negb andb] in *.
    + eexists. split; [reflexivity|]. refine (mux_is_ext m1 _ _ _ _ Hm1). intros x. now rewrite HD, !orb_false_r.
    + destruct (register_ok _ (dpat (reg ++ [r])) plain m1 (p ++ [slash]) Hm1) as (m2 & E2 & Hm2);
        [intros x; now rewrite HD, orb_assoc|destruct p; discriminate
        |apply Hfree; now rewrite HD, str_eqb_refl, !orb_true_r|].
      (* p/ is not p, so the first step has not put it there *)
      rewrite (dpat_noroot reg _ Hroot) in E2.
      replace (str_eqb p (p ++ [slash])) with false in E2.
      2:{ symmetry. apply str_eqb_neq. intros F. rewrite F, ends_with_slash_app in Es. discriminate. }
      rewrite orb_false_r in E2.
      destruct (pattern_mapped (p ++ [slash]) reg); cbn [negb]; [injection E2 as <-|rewrite E2]; eauto.
Qed.

Lemma rebuild_cons r rest m isroot mapped :
  rebuild (r :: rest) m isroot mapped =
  match rebuild [r] m isroot mapped with Some (m1, b1) => rebuild rest m1 b1 (mapped ++ [r]) | None => None end.
Proof. cbn. destruct isroot; [reflexivity|]. now destruct (add_handler r m mapped) as [[]|]. Qed.

(* Container.Add's mux part, one round of Remove's loop: the service gets mapped unless one sits on "/" already *)
Lemma rebuild_one_ok m reg plain r :
  mux_is m (dpat reg) plain -> (forall q, In q (map fst plain) -> dpat (reg ++ [r]) q = false) ->
  exists m', rebuild [r] m (has_rootsvc reg) reg = Some (m', has_rootsvc (reg ++ [r])) /\
             mux_is m' (dpat (reg ++ [r])) plain.
Proof.
  intros Hm Hpl. cbn [rebuild]. rewrite has_rootsvc_app. destruct (has_rootsvc reg) eqn:Hroot.
  - exists m. split; [reflexivity|]. apply (mux_is_ext m (dpat reg)); [|exact Hm].
    intros q. now rewrite dpat_app, Hroot, orb_false_r.
  - destruct (add_handler_ok m reg plain r Hm Hroot Hpl) as (m' & -> & Hm'). exists m'. split; [|exact Hm'].
    cbn. now rewrite orb_false_r.
Qed.

Lemma rebuild_ok rest : forall m reg plain,
  mux_is m (dpat reg) plain -> (forall q, In q (map fst plain) -> dpat (reg ++ rest) q = false) ->
  exists m', rebuild rest m (has_rootsvc reg) reg = Some (m', has_rootsvc (reg ++ rest)) /\
             mux_is m' (dpat (reg ++ rest)) plain.
Proof.
  induction rest as [|r rest IH]; intros m reg plain Hm Hpl.
  - cbn. rewrite app_nil_r. eauto.
  - assert (Hpl' : forall q, In q (map fst plain) -> dpat ((reg ++ [r]) ++ rest) q = false)
      by (intros q; rewrite <- app_assoc; apply Hpl).
    rewrite rebuild_cons. destruct (rebuild_one_ok m reg plain r Hm) as (m1 & -> & Hm1).
    { intros q H. apply Hpl' in H. rewrite dpat_app in H. now apply orb_false_iff in H. }
    destruct (IH m1 (reg ++ [r]) plain Hm1 Hpl') as (m' & E & Hm'). rewrite <- app_assoc in E, Hm'. eauto.
Qed.

(* the plain handlers are registered (Container.Handle one by one, or again by Container.Remove) *)
Lemma handle_all_ok plain2 : forall m D plain,
  mux_is m D plain -> (forall p, In p (map fst plain2) -> p <> [] /\ D p = false) ->
  NoDup (map fst (plain ++ plain2)) ->
  exists m', handle_all plain2 m = Some m' /\ mux_is m' D (plain ++ plain2).
Proof.
  induction plain2 as [|[p id] rest IH]; intros m D plain Hm Hc Hnd; cbn [handle_all].
  - rewrite app_nil_r. eauto.
  - destruct (Hc p (or_introl eq_refl)) as [Hne HD].
    destruct (handle_plain_ok m D plain p id Hm Hne HD) as (-> & Hm1).
    + intros Hin. rewrite map_app in Hnd. apply NoDup_remove_2 in Hnd. apply Hnd, in_app_iff. now left.
    + destruct (IH _ D (plain ++ [(p, id)]) Hm1) as (m' & E & Hm').
      * intros q Hin. apply Hc. now right.
      * now rewrite <- app_assoc.
      * rewrite <- app_assoc in Hm'. eauto.
Qed.

Lemma assoc_obj_set objs root l x : assoc x (obj_set objs root l) = if str_eqb x root then Some l else assoc x objs.
Proof.
  induction objs as [|[k v] objs IH]; cbn; [reflexivity|]. destruct (str_eqb k root) eqn:E; cbn.
  - apply str_eqb_eq in E. subst k. destruct (str_eqb x root); reflexivity.
  - rewrite IH. destruct (str_eqb_spec x k) as [->|]; [now rewrite E|reflexivity].
Qed.
Lemma obj_set_noop objs root l : assoc root objs = Some l -> obj_set objs root l = objs.
Proof.
  induction objs as [|[k v] objs IH]; cbn; [discriminate|].
  destruct (str_eqb root k) eqn:E.
  - intros H; injection H as ->. apply str_eqb_eq in E. subst. now rewrite str_eqb_refl.
  - intros H. rewrite str_eqb_sym, E. now rewrite IH.
Qed.

Lemma assoc_obj_set_some objs root l x : assoc x objs <> None -> assoc x (obj_set objs root l) <> None.
Proof. intros H. rewrite assoc_obj_set. destruct (str_eqb x root); [discriminate|exact H]. Qed.

Lemma norm_root_idem r : norm_root (norm_root r) = norm_root r.
Proof. unfold norm_root, ws_path. destruct r; reflexivity. Qed.

Lemma cs_run_app a : forall b s k s1,
  cs_run s a k = (s1, None) -> cs_run s (a ++ b) k = cs_run s1 b (k + length a).
Proof.
  induction a as [|o a IH]; intros b s k s1 H; cbn [cs_run app length] in *.
  - injection H as <-. now rewrite Nat.add_0_r.
  - destruct (cs_step s o) as [s'|f]; [|discriminate]. rewrite (IH b s' (S k) s1 H). f_equal. lia.
Qed.

(* a run of Handle operations is [handle_all] on the mux *)
Lemma run_handles rest : forall s k m',
  handle_all rest (cs_mux s) = Some m' ->
  cs_run s (map (fun ph => RHandle (fst ph) (snd ph)) rest) k =
  ({| cs_objs := cs_objs s; cs_reg := cs_reg s; cs_mux := m'; cs_root := cs_root s; cs_plain := cs_plain s ++ rest |}, None).
Proof.
  induction rest as [|[p id] rest IH]; intros s k m' E; cbn [map cs_run handle_all fst snd cs_step] in *.
  - injection E as <-. rewrite app_nil_r. now destruct s.
  - destruct (mux_handle (cs_mux s) p (TPlain id)) as [m1|]; [|discriminate].
    erewrite IH by exact E. cbn. now rewrite <- app_assoc.
Qed.

(* Container.Add of a root that is not registered: its mux part is [rebuild] of the one service *)
Lemma cs_step_add s root0 routes m b :
  mem (norm_root root0) (cs_reg s) = false ->
  rebuild [norm_root root0] (cs_mux s) (cs_root s) (cs_reg s) = Some (m, b) ->
  cs_step s (RAdd root0 routes) =
  inl {| cs_objs := obj_set (cs_objs s) (norm_root root0) (obj_routes (cs_objs s) (norm_root root0) ++ routes);
         cs_reg := cs_reg s ++ [norm_root root0]; cs_mux := m; cs_root := b; cs_plain := cs_plain s |}.
Proof.
  cbn. intros ->. destruct (cs_root s); [|destruct (add_handler _ _ _) as [[]|]; [|discriminate]]; intros [= <- <-]; reflexivity.
Qed.

(* a run of Add operations with new roots is [rebuild] on the mux; each adds its routes to its object *)
Lemma run_adds (routes : str -> list route) rest : forall s k m' b,
  NoDup (cs_reg s ++ map norm_root rest) ->
  rebuild (map norm_root rest) (cs_mux s) (cs_root s) (cs_reg s) = Some (m', b) ->
  cs_run s (map (fun r => RAdd r (routes r)) rest) k =
  ({| cs_objs := fold_left (fun o r => obj_set o (norm_root r) (obj_routes o (norm_root r) ++ routes r)) rest (cs_objs s);
      cs_reg := cs_reg s ++ map norm_root rest; cs_mux := m'; cs_root := b; cs_plain := cs_plain s |}, None).
Proof.
  induction rest as [|r rest IH]; intros s k m' b Hnd E; cbn [map cs_run fold_left] in *.
  - injection E as <- <-. rewrite app_nil_r. now destruct s.
  - rewrite rebuild_cons in E. destruct (rebuild [norm_root r] _ _ _) as [[m1 b1]|] eqn:E1; [|discriminate].
    rewrite (cs_step_add s r (routes r) m1 b1);
      [|apply mem_false; intros H; apply NoDup_remove_2 in Hnd; apply Hnd, in_app_iff; now left|exact E1].
    erewrite IH; [|cbn; now rewrite <- app_assoc|exact E]. cbn. now rewrite <- app_assoc.
Qed.

(* an Add without routes of an object that exists leaves the objects as they are *)
Lemma adds_objs_same rest : forall objs,
  (forall x, In x rest -> assoc (norm_root x) objs <> None) ->
  fold_left (fun o r => obj_set o (norm_root r) (obj_routes o (norm_root r) ++ [])) rest objs = objs.
Proof.
  induction rest as [|r rest IH]; intros objs H; cbn [fold_left]; [reflexivity|].
  assert (E : obj_set objs (norm_root r) (obj_routes objs (norm_root r) ++ []) = objs).
  { rewrite app_nil_r. unfold obj_routes. pose proof (H r (or_introl eq_refl)) as Ha.
    destruct (assoc (norm_root r) objs) eqn:Ea; [now apply obj_set_noop|now contradiction Ha]. }
  rewrite E. apply IH. intros x Hx. apply H. now right.
Qed.

Lemma has_key_In {A} (l : list (str * A)) p : existsb (fun e => str_eqb (fst e) p) l = true <-> In p (map fst l).
Proof. rewrite existsb_str_eqb, in_map_iff. split; intros (e & H1 & H2); eauto. Qed.

Lemma NoDup_snoc {A} (l : list A) x : NoDup l -> ~ In x l -> NoDup (l ++ [x]).
Proof. intros Hl Hx. apply (NoDup_Add (Add_app x l [])). now rewrite app_nil_r. Qed.

Section History.
Variable roots : list str.         (* the roots a history may register *)
Variable plainU : list str.        (* the patterns it may hand to Container.Handle *)

Definition universe_ok : bool := forallb (plain_compatible roots) plainU.

(* the premise of the property, operation by operation (Model.Registry.reg_op_ok / reg_ops_ok) *)
Definition ops_ok := reg_ops_ok roots plainU.

Record cs_inv (s : cstate) : Prop := {
  ci_mux : mux_ok (cs_mux s) (cs_root s) (cs_reg s) (cs_plain s);
  ci_reg : forall x, In x (cs_reg s) -> In x roots /\ norm_root x = x /\ assoc x (cs_objs s) <> None;
  ci_regnd : NoDup (cs_reg s);
  ci_plain : forall p id, In (p, id) (cs_plain s) -> plain_compatible roots p = true;
  ci_plainnd : NoDup (map fst (cs_plain s))
}.

Lemma cs_inv_init : cs_inv cs_init.
Proof.
  constructor; cbn.
  - apply mux_ok_is. split; [apply mux_is_empty|reflexivity].
  - intros x [].
  - constructor.
  - intros p id [].
  - constructor.
Qed.

(* the plain handlers of a state with the invariant stay clear of whatever services of the universe are registered *)
Lemma plain_apart s reg p :
  cs_inv s -> (forall x, In x reg -> In x roots) -> In p (map fst (cs_plain s)) -> p <> [] /\ dpat reg p = false.
Proof. intros Hinv Hsub ([q id] & <- & H)%in_map_iff. apply (dpat_compatible roots); [exact (ci_plain s Hinv q id H)|exact Hsub]. Qed.

(* Container.Add of a root that is not registered *)
Lemma step_add_ok s root0 routes :
  cs_inv s -> ~ In (norm_root root0) (cs_reg s) -> In (norm_root root0) roots ->
  exists s', cs_step s (RAdd root0 routes) = inl s' /\ cs_inv s'.
Proof.
  intros Hinv Hnew Hin. pose proof Hinv as [[Hm Hroot]%mux_ok_is Hreg Hnd Hpl Hpnd].
  destruct (rebuild_one_ok _ _ _ (norm_root root0) Hm) as (m' & E & Hm').
  { intros q H. apply (plain_apart s _ q Hinv); [|exact H]. intros x [Hx|[<-|[]]]%in_app_iff; [now apply Hreg|exact Hin]. }
  rewrite <- Hroot in E. rewrite (cs_step_add s root0 routes m' _ (proj2 (mem_false _ _) Hnew) E). eexists. split; [reflexivity|].
  constructor; cbn; [apply mux_ok_is; now split| |now apply NoDup_snoc|exact Hpl|exact Hpnd].
  intros x [Hx|[<-|[]]]%in_app_iff.
  - destruct (Hreg x Hx) as (A & B & C). auto using assoc_obj_set_some.
  - rewrite norm_root_idem, assoc_obj_set, str_eqb_refl. repeat split; auto. discriminate.
Qed.

(* what Container.Remove builds, and a fresh container: services of the state mapped one after the other on an
   empty mux, then its plain handlers *)
Lemma fresh_mux_ok s reg :
  cs_inv s -> (forall x, In x reg -> In x (cs_reg s)) -> NoDup reg ->
  exists m1 b m2, rebuild reg [] false [] = Some (m1, b) /\ handle_all (cs_plain s) m1 = Some m2 /\
    cs_inv {| cs_objs := cs_objs s; cs_reg := reg; cs_mux := m2; cs_root := b; cs_plain := cs_plain s |}.
Proof.
  intros Hinv Hsub Hnd'. pose proof Hinv as [_ Hreg _ Hpl Hpnd].
  destruct (rebuild_ok reg [] [] [] mux_is_empty) as (m1 & E1 & Hm1); [intros q []|].
  destruct (handle_all_ok (cs_plain s) m1 (dpat reg) [] Hm1) as (m2 & E2 & Hm2); [|exact Hpnd|].
  { intros p. apply (plain_apart s _ p Hinv). intros x Hx. now apply Hreg, Hsub. }
  exists m1, (has_rootsvc reg), m2. split; [exact E1|]. split; [exact E2|].
  constructor; cbn; [apply mux_ok_is; now split|intros x Hx; now apply Hreg, Hsub|exact Hnd'|exact Hpl|exact Hpnd].
Qed.

Lemma step_remove_ok s root0 : cs_inv s -> exists s', cs_step s (RRemove root0) = inl s' /\ cs_inv s'.
Proof.
  intros Hinv. cbn [cs_step]. set (remaining := filter _ (cs_reg s)).
  destruct (fresh_mux_ok s remaining Hinv) as (m1 & b & m2 & -> & -> & Hinv');
    [intros x Hx; apply filter_In in Hx; tauto|apply NoDup_filter, Hinv|eauto].
Qed.

(* WebService.Route / RemoveRoute: the routes of one object change, nothing else *)
Lemma step_routes_ok s root l :
  cs_inv s -> cs_inv {| cs_objs := obj_set (cs_objs s) root l; cs_reg := cs_reg s; cs_mux := cs_mux s;
                        cs_root := cs_root s; cs_plain := cs_plain s |}.
Proof.
  intros [Hmux Hreg Hnd Hpl Hpnd]. constructor; cbn; auto.
  intros x Hx. destruct (Hreg x Hx) as (A & B & C). auto using assoc_obj_set_some.
Qed.

(* Container.Handle of a pattern that is not registered and collides with no service *)
Lemma step_handle_ok s p id :
  cs_inv s -> ~ In p (map fst (cs_plain s)) -> plain_compatible roots p = true ->
  exists s', cs_step s (RHandle p id) = inl s' /\ cs_inv s'.
Proof.
  intros [[Hm Hroot]%mux_ok_is Hreg Hnd Hpl Hpnd] Hnew Hc. cbn [cs_step].
  destruct (dpat_compatible roots (cs_reg s) p Hc (fun x Hx => proj1 (Hreg x Hx))) as [Hne HD].
  destruct (handle_plain_ok _ _ _ p id Hm Hne HD Hnew) as (-> & Hm').
  eexists. split; [reflexivity|]. constructor; cbn; [apply mux_ok_is; now split|exact Hreg|exact Hnd| |].
  - intros q i [Hx|[[= <- <-]|[]]]%in_app_iff; eauto.
  - rewrite map_app. now apply NoDup_snoc.
Qed.

Lemma step_ok s o :
  universe_ok = true -> cs_inv s -> reg_op_ok roots plainU s o = true -> exists s', cs_step s o = inl s' /\ cs_inv s'.
Proof.
  intros HU Hinv Hop. destruct o as [root routes|root|root r|root path method|p id]; cbn [reg_op_ok] in Hop.
  - apply andb_true_iff in Hop as [Hnew%negb_true_iff%mem_false Hin%mem_In].
    now apply step_add_ok.
  - now apply step_remove_ok.
  - eexists. split; [reflexivity|now apply step_routes_ok].
  - eexists. split; [reflexivity|now apply step_routes_ok].
  - apply andb_true_iff in Hop as [Hin%mem_In Hnew%negb_true_iff].
    apply (step_handle_ok s p id Hinv); [intros H%has_key_In; congruence|].
    unfold universe_ok in HU. rewrite forallb_forall in HU. now apply HU.
Qed.

Lemma run_ok ops : forall s k,
  universe_ok = true -> cs_inv s -> ops_ok s ops = true -> exists s', cs_run s ops k = (s', None) /\ cs_inv s'.
Proof.
  induction ops as [|o rest IH]; intros s k HU Hinv Hok; unfold ops_ok in *; cbn [cs_run reg_ops_ok] in *; [eauto|].
  apply andb_true_iff in Hok as [Hop Hrest]. destruct (step_ok s o HU Hinv Hop) as (s1 & E & Hinv1).
  rewrite E in *. now apply IH.
Qed.

(* a container built afresh from the content of a state that satisfies the invariant: nothing fails, and it
   satisfies the invariant with the same content *)
Lemma fresh_ok s :
  cs_inv s ->
  exists sf, cs_fresh s = (sf, None) /\ cs_inv sf /\
             cs_reg sf = cs_reg s /\ cs_objs sf = cs_objs s /\ cs_plain sf = cs_plain s.
Proof.
  intros Hinv. pose proof Hinv as [_ Hreg Hnd _ _]. unfold cs_fresh.
  assert (Hid : map norm_root (cs_reg s) = cs_reg s).
  { rewrite <- (map_id (cs_reg s)) at 2. apply map_ext_in. intros x Hx. apply (Hreg x Hx). }
  destruct (fresh_mux_ok s (cs_reg s) Hinv (fun x Hx => Hx) Hnd) as (m1 & b & m2 & E1 & E2 & Hinv').
  set (s0 := Build_cstate _ _ _ _ _).
  pose proof (run_adds (fun _ => []) (cs_reg s) s0 0 m1 b) as Er. cbn in Er. rewrite Hid in Er.
  rewrite (cs_run_app _ _ _ _ _ (Er Hnd E1)). erewrite run_handles by exact E2. cbn. rewrite adds_objs_same.
  - eexists. split; [reflexivity|]. split; [exact Hinv'|auto].
  - intros x Hx. destruct (Hreg x Hx) as (_ & -> & C). exact C.
Qed.

Lemma plain_in_universe s : cs_inv s -> True. Proof. auto. Qed.

Lemma same_content_same_answers O rt s1 s2 req :
  cs_inv s1 -> cs_inv s2 -> cs_reg s1 = cs_reg s2 -> cs_objs s1 = cs_objs s2 -> cs_plain s1 = cs_plain s2 ->
  serve_http O rt s1 req = serve_http O rt s2 req /\ serve_dispatch O rt s1 req = serve_dispatch O rt s2 req.
Proof.
  intros H1 H2 Hr Ho Hp.
  assert (Ht : cs_table rt s1 = cs_table rt s2) by (unfold cs_table; now rewrite Hr, Ho).
  split; [|unfold serve_dispatch; now rewrite Ht].
  unfold serve_http. rewrite Ht.
  destruct (ci_mux s1 H1) as [S1 _ _]. destruct (ci_mux s2 H2) as [S2 K2 _].
  rewrite (mux_serve_equiv (cs_mux s1) (cs_mux s2)); auto.
  intros e. rewrite S1, S2, Hr, Hp. tauto.
Qed.

End History.

(* the plain patterns a history registers are those it hands to Handle *)
Fixpoint handled (ops : list regop) : list str :=
  match ops with
  | [] => []
  | RHandle p _ :: rest => p :: handled rest
  | _ :: rest => handled rest
  end.

(* the index at which the run without the refused calls starts plays no part *)
Lemma run_skip_accepted ops : forall s k anom k',
  fst (fst (cs_run_skip s ops k anom)) = fst (cs_run s (accepted_ops ops) k') /\
  (snd (fst (cs_run_skip s ops k anom)) = None <-> snd (cs_run s (accepted_ops ops) k') = None).
Proof.
  unfold accepted_ops.
  induction ops as [|[refused o] ops IH]; intros s k anom k'; cbn [cs_run_skip filter map fst snd negb cs_run].
  - split; [reflexivity|tauto].
  - destruct refused; cbn [negb filter map cs_run snd].
    + destruct (cs_step s o); apply IH.
    + destruct (cs_step s o) as [s1|f]; [apply IH|]. cbn. split; [reflexivity|]. split; discriminate.
Qed.

(* the state after a history with refused calls is the state after the history without them, and one fails iff the
   other does: theorem C11 speaks about it through [accepted_ops] *)
Theorem run_skip_is_run_of_accepted ops : forall s k anom,
  fst (fst (cs_run_skip s ops k anom)) = fst (cs_run s (accepted_ops ops) 0) /\
  (snd (fst (cs_run_skip s ops k anom)) = None <-> snd (cs_run s (accepted_ops ops) 0) = None).
Proof. intros s k anom. apply run_skip_accepted. Qed.

(* the count of anomalies never falls below its start value (where it grows is the definition of [cs_run_skip]:
   at a refused call that the model would have carried out) *)
Lemma run_skip_anomalies_monotone ops : forall s k anom, anom <= snd (cs_run_skip s ops k anom).
Proof.
  induction ops as [|[refused o] ops IH]; intros s k anom; cbn [cs_run_skip]; [apply le_n|].
  destruct refused, (cs_step s o); cbn [snd]; try apply IH; try apply le_n.
  eapply Nat.le_trans; [apply Nat.le_succ_diag_r|apply IH].
Qed.

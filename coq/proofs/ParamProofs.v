(* ParamProofs.v — defaultPathProcessor.ExtractParameters binds exactly the
   structural bindings (C04, CurlyRouter) and never panics on admitted paths. *)
From Model Require Import Str Http Template Table Router.
From Spec Require Import RouteSpec.
From Proofs Require Import StrFacts CurlyProofs RouterProofs.
From Coq Require Import Lia.

Definition pset_all (b acc : list (str * str)) : list (str * str) :=
  fold_left (fun m kv => pset (fst kv) (snd kv) m) b acc.

Lemma pset_all_app a b acc : pset_all (a ++ b) acc = pset_all b (pset_all a acc).
Proof. apply fold_left_app. Qed.

(* what one token contributes, as the code computes it on key/value without verb *)
Definition core_extract (key value : str) (i : nat) (url : list str) (acc : list (str * str))
           (K : list (str * str) -> option (list (str * str))) : option (list (str * str)) :=
  match index_char key lbrace with
  | None => K acc
  | Some start =>
    match index_char key colon with
    | Some c =>
        if negb (slice_ok key (c + 1) (List.length key - 1) && slice_ok key 1 c) then None
        else
          let reg := slice key (c + 1) (List.length key - 1) in
          let name := slice key 1 c in
          if str_eqb reg (L "*") then Some (pset name (untokenize i url) acc)
          else K (pset name value acc)
    | None =>
        match index_char key rbrace with
        | None => None
        | Some e =>
          let suffix_len := List.length key - e - 1 in
          if negb (Nat.leb (start + 1) e) then None
          else if Nat.ltb (List.length value) (start + suffix_len) then None
          else K (pset (slice key (start + 1) e) (slice value start (List.length value - suffix_len)) acc)
        end
    end
  end.

Lemma extract_loop_unfold hcv i key0 parts url acc :
  extract_loop hcv i (key0 :: parts) url acc =
    let value0 := nth i url [] in
    let verb := hcv && has_custom_verb key0 in
    core_extract (if verb then remove_custom_verb key0 else key0)
                 (if verb then remove_custom_verb value0 else value0)
                 i url acc (extract_loop hcv (S i) parts url).
Proof. reflexivity. Qed.

(* "{n:re}", the tail wildcard being re = "*" *)
Lemma core_extract_colon n re value i url acc K :
  wf_name n = true ->
  core_extract (lbrace :: n ++ colon :: re ++ [rbrace]) value i url acc K =
    if str_eqb re (L "*") then Some (pset n (untokenize i url) acc) else K (pset n value acc).
Proof.
  unfold wf_name. intros [[Hn _]%andb_true_iff _]%andb_true_iff. destruct (var_token_raw n colon (re ++ [rbrace]) eq_refl Hn) as (Hc & Hname & Hre%slice_but_last & Hlen).
  rewrite last_length in Hlen.
  unfold core_extract. set (key := lbrace :: _) in *. change (index_char key lbrace) with (Some 0).
  now rewrite Hc, Hname, Hre, !slice_ok_true by lia.
Qed.

(* "{n}suf", the plain variable being suf = "" *)
Lemma core_extract_brace n suf value i url acc K :
  wf_name n = true -> no_char colon suf = true -> has_suffix value suf = true ->
  core_extract (lbrace :: n ++ rbrace :: suf) value i url acc K =
    K (pset n (firstn (List.length value - List.length suf) value) acc).
Proof.
  unfold wf_name. intros [[Hco%negb_true_iff _]%andb_true_iff Hrb]%andb_true_iff Hs%negb_true_iff [pre ->]%has_suffix_spec.
  destruct (var_token_raw n rbrace suf eq_refl Hrb) as (He & Hname & _ & Hlen).
  assert (Hc : index_char (lbrace :: n ++ rbrace :: suf) colon = None).
  { apply index_char_None. cbn [existsb]. now rewrite existsb_app, Hco. }
  unfold core_extract. set (key := lbrace :: _) in *. change (index_char key lbrace) with (Some 0).
  rewrite Hc, He. cbn [Nat.add Nat.leb negb]. rewrite Hname, Hlen, app_length.
  replace (_ <? _) with false by (symmetry; apply Nat.ltb_ge; lia).
  unfold slice. cbn [skipn]. do 3 f_equal. lia.
Qed.

Lemma core_extract_spec (k : tk) (value : str) i url acc K :
  wf_tk k = true ->
  (match k with TSuf _ suf => has_suffix value suf = true | _ => True end) ->
  core_extract (render_tk k) value i url acc K =
    match k with
    | TTail n => Some (pset n (untokenize i url) acc)
    | _ => K (pset_all (tk_binding k value) acc)
    end.
Proof.
  intros Hwf Hsuf. destruct k as [s|n|n re|n suf|n]; cbn [render_tk wf_tk tk_binding pset_all fold_left fst snd] in *.
  - unfold core_extract. now rewrite (proj2 (index_char_None s lbrace)) by now apply negb_true_iff.
  - rewrite (core_extract_brace n [] value) by auto. cbn. now rewrite Nat.sub_0_r, firstn_all.
  - apply andb_true_iff in Hwf as [Hn Hre%negb_true_iff]. rewrite (core_extract_colon n re value) by exact Hn. now rewrite Hre.
  - apply andb_true_iff in Hwf as [[Hn Hs]%andb_true_iff _]. now apply core_extract_brace.
  - now apply (core_extract_colon n (L "*")).
Qed.

Section P.
Variable O : oracles.

Lemma extract_loop_step hcv rt parts i (url : list str) acc :
  wf_tok_str hcv rt = true ->
  let t := parse_tok hcv rt in
  (is_tail t = false -> vtok_admits O t (nth i url []) = true) ->
  extract_loop hcv i (rt :: parts) url acc =
    match v_tk t with
    | TTail n => Some (pset n (untokenize i url) acc)
    | k => extract_loop hcv (S i) parts url
             (pset_all (match strip_verb (v_verb t) (nth i url []) with
                        | Some base => tk_binding k base | None => [] end) acc)
    end.
Proof.
  intros Hwf t Hadm. destruct (verb_view hcv rt Hwf) as (Hk & _ & Hrender & _ & Hstrip). fold t in Hk, Hrender, Hstrip.
  rewrite extract_loop_unfold. cbv zeta. rewrite Hrender. unfold vtok_admits, is_tail in Hadm. rewrite Hstrip in *.
  destruct (v_tk t); try (specialize (Hadm eq_refl); destruct (_ && negb _); [discriminate Hadm|]);
    now rewrite core_extract_spec.
Qed.

(* C04 / C02(no panic), CurlyRouter: on an admitted path the parameters are the
   structural bindings and extraction does not panic.  The loop indexes into the whole path:
   [pre] is the part of it already walked, [segs] what the remaining template tokens stand against *)
Theorem extract_loop_bindings hcv parts pre segs acc :
  forallb (wf_tok_str hcv) parts = true ->
  admits_path O (map (parse_tok hcv) parts) segs = true ->
  extract_loop hcv (List.length pre) parts (pre ++ segs) acc
  = Some (pset_all (bindings (map (parse_tok hcv) parts) segs) acc).
Proof.
  revert pre segs acc. induction parts as [|rt parts IH]; intros pre segs acc Hwf Hadm; [reflexivity|].
  destruct segs as [|s segs]; [discriminate Hadm|].
  cbn [forallb map admits_path bindings] in *. apply andb_true_iff in Hwf as [Hw1 Hw2].
  rewrite (extract_loop_step hcv rt parts _ _ acc Hw1); rewrite nth_middle.
  2:{ intros Hnt. rewrite Hnt in Hadm. now apply andb_true_iff in Hadm as [Hadm _]. }
  specialize (IH (pre ++ [s]) segs). rewrite app_length, Nat.add_1_r, <- app_assoc in IH.
  unfold is_tail in Hadm. destruct (v_tk (parse_tok hcv rt));
    [| | | |unfold untokenize; now rewrite skipn_app_l];
    apply andb_true_iff in Hadm as [_ Hadm]; rewrite (IH _ Hw2 Hadm); now rewrite pset_all_app.
Qed.

Theorem curly_extract_parameters_spec w r path :
  wf_route w r = true ->
  admits_path O (route_tpl w r) (tokenize path) = true ->
  curly_extract_parameters w r path = Some (pset_all (bindings (route_tpl w r) (tokenize path)) []).
Proof.
  unfold wf_route, wf_template. intros [Hw _]%andb_true_iff Hadm.
  exact (extract_loop_bindings _ _ [] _ [] Hw Hadm).
Qed.

(* C04, CurlyRouter: the handler of an invoked route sees the structural bindings *)
Theorem curly_invoked_params t req w r ps :
  t_router t = Curly ->
  route_request O t req = RInvoke w r ps ->
  wf_route w r = true ->
  ps = pset_all (bindings (route_tpl w r) (tokenize (rq_path req))) [].
Proof.
  intros Ht [Es He]%route_request_invoke Hwf.
  destruct (curly_select_route_sound O t req w r Ht Es) as (_ & _ & Hadm). specialize (Hadm Hwf). unfold admits in Hadm.
  apply andb_true_iff in Hadm as [[[[_ Hadm]%andb_true_iff _]%andb_true_iff _]%andb_true_iff _].
  unfold extract_parameters in He. rewrite Ht, (curly_extract_parameters_spec w r _ Hwf Hadm) in He. now injection He.
Qed.

End P.

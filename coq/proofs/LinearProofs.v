(* LinearProofs.v — C12, linearisation: under every schedule, a finished request was answered
   according to the registration state recorded in its ghost field, i.e. the global service
   list at the moment it read the claiming service's routes. *)
From Model Require Import Str Http Template Table Curly Jsr311 Router Linear.

From Proofs Require Import StrFacts FrameProofs.
From Coq Require Import Lia.

Section P.
Variable O : oracles.
Variable rtr : router.

Notation tbl l := {| t_router := rtr; t_services := l |}.

Lemma claim_root_roots req wss wss' :
  map s_root wss = map s_root wss' -> claim_root O rtr req wss = claim_root O rtr req wss'.
Proof.
  intros Hf%Forall2_map_eq. unfold claim_root. destruct rtr.
  - pose proof (detect_web_service_rel O _ (tokenize (rq_path req)) _ _ (fun w w' H => H) Hf) as H.
    destruct (detect_web_service O _ wss), (detect_web_service O _ wss'); try contradiction; [|reflexivity].
    cbn. now rewrite H.
  - pose proof (detect_dispatcher_rel O _ (rq_path req) _ _ (fun w w' H => H) Hf) as H.
    destruct (detect_dispatcher O _ wss) as [[w fin]|], (detect_dispatcher O _ wss') as [[w' fin']|]; try contradiction; [|reflexivity].
    cbn. now rewrite (proj1 H).
Qed.

(* seen from the current list, the thread's view differs only where the root is not the claimed one *)
Definition touched_of (rt : option str) (r : str) : bool :=
  match rt with Some x => negb (str_eqb r x) | None => true end.

Lemma reread_rel rt snap : forall cur,
  map s_root snap = map s_root cur ->
  Forall2 (untouched_same (touched_of rt)) cur (reread rt snap cur).
Proof.
  induction snap as [|s snap IH]; intros [|c cur] H; try discriminate H; [constructor|].
  injection H as Hr Hrest. cbn [reread]. constructor; [|now apply IH].
  unfold untouched_same, touched_of. destruct rt as [r|]; [|split; [now symmetry|discriminate]].
  destruct (str_eqb (s_root s) r) eqn:E; [split; reflexivity|]. split; [now symmetry|]. rewrite <- Hr, E. discriminate.
Qed.

(* the answer computed from the thread's view is the answer of the state at its routes read *)
Lemma view_answer req snap cur :
  map s_root snap = map s_root cur ->
  select_route O (tbl (reread (claim_root O rtr req snap) snap cur)) req = select_route O (tbl cur) req.
Proof.
  intros Hroots. symmetry. rewrite (claim_root_roots req snap cur Hroots).
  apply (frame O (touched_of (claim_root O rtr req cur))); [reflexivity|now apply reread_rel|].
  cbn [t_router t_services]. intros w Hw.
  replace (claim_root O rtr req cur) with (Some (s_root w)); [cbn; now rewrite str_eqb_refl|].
  unfold claim_root. destruct rtr; [now rewrite Hw|]. destruct Hw as [fin ->]. reflexivity.
Qed.

(* who holds webServicesLock: a request from RLock to RUnlock (QHeld, QSnap, QView), a mutator between Lock and its change *)
Definition holds_read (t : thread) : nat :=
  match t with TReq _ QHeld | TReq _ (QSnap _) | TReq _ (QView _ _) => 1 | _ => 0 end.
Definition holds_write (t : thread) : nat := match t with TMut (Some _) _ => 1 | _ => 0 end.
Definition total (f : thread -> nat) (l : list thread) : nat := fold_right (fun t a => f t + a) 0 l.

Lemma total_cons f t l : total f (t :: l) = f t + total f l.
Proof. reflexivity. Qed.

Lemma total_upd f i t' : forall l t,
  nth_error l i = Some t -> total f (upd i t' l) + f t = total f l + f t'.
Proof.
  induction i as [|i IH]; intros [|y l] t H; try discriminate H; cbn [nth_error upd] in *; rewrite !total_cons.
  - injection H as ->. lia.
  - specialize (IH l t H). lia.
Qed.

Lemma total_zero f l : (forall t, In t l -> f t = 0) -> total f l = 0.
Proof. induction l as [|t l IH]; intros H; [reflexivity|]. rewrite total_cons, (H t), IH; auto using in_eq, in_cons. Qed.

Lemma total_ge f l t : In t l -> f t <= total f l.
Proof.
  induction l as [|y l IH]; [contradiction|]. rewrite total_cons.
  intros [<-|Hin]; [lia|]. specialize (IH Hin). lia.
Qed.

Lemma In_upd {A} i (x : A) : forall l y, In y (upd i x l) -> y = x \/ In y l.
Proof.
  induction i as [|i IH]; intros [|z l] y H; cbn in *; try contradiction.
  - destruct H as [<-|H]; auto.
  - destruct H as [<-|H]; auto. destruct (IH l y H); auto.
Qed.

Definition good_thread (g : gs) (t : thread) : Prop :=
  match t with
  | TReq req (QSnap snap) => map s_root snap = map s_root (g_svcs g)
  | TReq req (QView view lin) => select_route O (tbl view) req = select_route O (tbl lin) req
  | TReq req (QDone ans lin) => ans = select_route O (tbl lin) req
  | _ => True
  end.

(* the lock words count their holders, so a writer excludes readers; and what each request knows is good: a snapshot has
   the current roots, a view selects as the list at its routes read does, an answer is that list's answer *)
Definition Inv (st : gs * list thread) : Prop :=
  let (g, ths) := st in
  g_cr g = total holds_read ths /\
  (g_cw g = true -> g_cr g = 0) /\
  total holds_write ths = (if g_cw g then 1 else 0) /\
  (forall t, In t ths -> good_thread g t).

(* changing the lock words or the routes keeps snapshots valid; changing the roots happens
   only when nobody holds a snapshot *)
Lemma good_thread_same_roots g g' t :
  map s_root (g_svcs g') = map s_root (g_svcs g) -> good_thread g t -> good_thread g' t.
Proof. destruct t as [req [| |snap|view lin|ans lin]|h ops]; cbn; auto. intros ->. auto. Qed.

Lemma good_thread_no_reader g g' t : holds_read t = 0 -> good_thread g t -> good_thread g' t.
Proof. destruct t as [req [| |snap|view lin|ans lin]|h ops]; cbn; auto; discriminate. Qed.

Lemma set_routes_roots root rs wss : map s_root (apply_op (OSetRoutes root rs) wss) = map s_root wss.
Proof.
  cbn. induction wss as [|w wss IH]; [reflexivity|]. cbn. rewrite IH. destruct (str_eqb (s_root w) root); reflexivity.
Qed.

(* the invariant after thread i went from t to t': the counts move with the lock words, the other threads keep
   what they know (the equations are oriented so that they hold by computation in all cases but the two unlocks) *)
Lemma Inv_upd g g' ths i t t' :
  Inv (g, ths) -> nth_error ths i = Some t ->
  holds_read t + g_cr g' = holds_read t' + g_cr g ->
  holds_write t + (if g_cw g' then 1 else 0) = holds_write t' + (if g_cw g then 1 else 0) ->
  (g_cw g' = true -> g_cr g' = 0) ->
  good_thread g' t' -> (forall x, In x ths -> good_thread g x -> good_thread g' x) ->
  Inv (g', upd i t' ths).
Proof.
  intros (Hcr & _ & Hw & Hgood) Ei Er Ew Hcw' Ht Hframe.
  pose proof (total_upd holds_read i t' ths t Ei). pose proof (total_upd holds_write i t' ths t Ei).
  split; [lia|]. split; [exact Hcw'|]. split; [lia|].
  intros x [->|Hx]%In_upd; [exact Ht|]. now apply Hframe, Hgood.
Qed.

Lemma step_inv st i : Inv st -> Inv (sstep O rtr st i).
Proof.
  destruct st as [g ths]. unfold sstep. cbn [fst snd].
  destruct (nth_error ths i) as [t|] eqn:Ei; [|auto].
  destruct (tstep O rtr g t) as [[g' t']|] eqn:Es; [|auto].
  intros HI. pose proof HI as (Hcr & Hcw & Hw & Hgood).
  assert (Hin : In t ths) by (eapply nth_error_In; eauto).
  pose proof (Hgood t Hin) as Hgt.
  assert (Hsame : map s_root (g_svcs g') = map s_root (g_svcs g) -> forall x, In x ths -> good_thread g x -> good_thread g' x)
    by (intros Hr x _; now apply good_thread_same_roots).
  destruct t as [req [| |snap|view lin|ans lin]|[op|] ops]; cbn [tstep] in Es.
  - (* RLock *)
    destruct (g_cw g) eqn:Ecw; [discriminate Es|]. injection Es as <- <-.
    apply (Inv_upd g _ ths i _ _ HI Ei); cbn; rewrite ?Ecw; auto; discriminate.
  - (* read the service list *)
    injection Es as <- <-. apply (Inv_upd g _ ths i _ _ HI Ei); cbn; auto.
  - (* read the claiming service's routes *)
    injection Es as <- <-. apply (Inv_upd g _ ths i _ _ HI Ei); cbn; auto. now apply view_answer.
  - (* RUnlock, answer *)
    injection Es as <- <-. pose proof (total_ge holds_read ths _ Hin) as Tr. cbn in Tr.
    apply (Inv_upd g _ ths i _ _ HI Ei); cbn; auto; [lia|]. intros H. now rewrite (Hcw H).
  - discriminate Es.
  - (* a mutator holding the write lock: change and Unlock *)
    injection Es as <- <-.
    assert (Ecw : g_cw g = true).
    { pose proof (total_ge holds_write ths _ Hin) as Tw. cbn in Tw. destruct (g_cw g); [reflexivity|lia]. }
    apply (Inv_upd g _ ths i _ _ HI Ei); cbn; rewrite ?Ecw; auto.
    intros x Hx. apply good_thread_no_reader. pose proof (total_ge holds_read ths x Hx) as Tx. rewrite <- Hcr, (Hcw Ecw) in Tx. lia.
  - (* a mutator not holding the lock *)
    destruct ops as [|op ops]; [discriminate Es|].
    destruct (needs_lock op) eqn:En.
    + destruct (g_cw g) eqn:Ecw; [discriminate Es|]. cbn [orb] in Es.
      destruct (Nat.eqb_spec (g_cr g) 0) as [Ecr|]; [|discriminate Es]. injection Es as <- <-.
      apply (Inv_upd g _ ths i _ _ HI Ei); cbn; rewrite ?Ecw; auto.
    + injection Es as <- <-. apply (Inv_upd g _ ths i _ _ HI Ei); cbn; auto.
      apply Hsame. destruct op as [w|root|root rs]; try discriminate En. apply set_routes_roots.
Qed.

Lemma run_inv sched : forall st, Inv st -> Inv (srun O rtr sched st).
Proof.
  induction sched as [|i sched IH]; intros st H; [exact H|]. cbn [srun fold_left]. apply IH, step_inv, H.
Qed.

Lemma init_inv wss ths :
  forallb fresh_thread ths = true -> Inv ({| g_svcs := wss; g_cw := false; g_cr := 0 |}, ths).
Proof.
  intros H. rewrite forallb_forall in H.
  assert (Hf : forall t, In t ths ->
            holds_read t = 0 /\ holds_write t = 0 /\ good_thread {| g_svcs := wss; g_cw := false; g_cr := 0 |} t).
  { intros t Ht. specialize (H t Ht). destruct t as [req [| | | |]|[|] ops]; try discriminate H; now repeat split. }
  unfold Inv. cbn [g_cr g_cw]. rewrite !total_zero by (intros t Ht; now apply Hf).
  repeat split. now apply Hf.
Qed.

(* the ghost state is the global service list at one of the request's own steps: it is
   written by the step QSnap -> QView, with the list as it is at that step *)
Lemma ghost_is_current g req snap g' t' :
  tstep O rtr g (TReq req (QSnap snap)) = Some (g', t') ->
  exists view, t' = TReq req (QView view (g_svcs g)) /\ g' = g.
Proof. cbn. intros H. injection H as <- <-. eauto. Qed.

End P.

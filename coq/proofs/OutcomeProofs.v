(* OutcomeProofs.v — C02: detectRoute on any candidate list is the declarative cascade on that list, and the cascade
   does not look at the order of the list; so for either router the outcome of routing is the cascade over the
   routes of the detected service whose template admits the path, and no panic on well-formed tables
   (outcome_exact; the CurlyRouter instance is here, RouterJSR311's in JsrOutcomeProofs.v). *)
From Model Require Import Str Http Template Table Curly DetectRoute Router.
From Spec Require Import RouteSpec RankSpec.
From Proofs Require Import StrFacts SortFacts RouterProofs ParamProofs.
From Coq Require Import Permutation.

Lemma Permutation_filter {A} (f : A -> bool) l l' :
  Permutation l l' -> Permutation (filter f l) (filter f l').
Proof.
  induction 1 as [|x l l' H IH|x y l|l l' l'' H1 IH1 H2 IH2]; cbn.
  - constructor.
  - destruct (f x); [now constructor|exact IH].
  - destruct (f x), (f y); try reflexivity. apply perm_swap.
  - now transitivity (filter f l').
Qed.

(* how an outcome is observed: (class, status, Allow, invoked route ids) *)
Definition routed_view (x : routed) : Z * Z * list str * list Z :=
  match x with
  | RInvoke _ r _ => (0, 200, [], [r_id r])
  | RError E404 => (1, 404, [], [])
  | RError (E405 a) => (1, 405, a, [])
  | RError E415 => (1, 415, [], [])
  | RError E406 => (1, 406, [], [])
  | RPanic => (2, 0, [], [])
  end%Z.

Definition meets (s : soutcome) (v : Z * Z * list str * list Z) : bool :=
  let '(c, st, al, inv) := v in outcome_meets s c st al inv.

(* detectRoute's answer observed in the same way: [detect_view (inr e)] is convertible with [routed_view (RError e)],
   [detect_view (inl r)] with [routed_view (RInvoke w r ps)] *)
Definition detect_view (d : route + rerr) : Z * Z * list str * list Z :=
  match d with
  | inl r => (0, 200, [], [r_id r])
  | inr E404 => (1, 404, [], [])
  | inr (E405 a) => (1, 405, a, [])
  | inr E415 => (1, 415, [], [])
  | inr E406 => (1, 406, [], [])
  end%Z.

Lemma forallb_mem_refl l : forallb (fun m => mem m l) l = true.
Proof. apply forallb_forall. intros x H. now apply mem_In. Qed.

Lemma meets_status code al c st allow inv :
  outcome_meets (SStatus code al) c st allow inv = true -> st = code /\ forall m, In m al <-> In m allow.
Proof.
  cbn. intros H. apply andb_true_iff in H as [H Ha2]. apply andb_true_iff in H as [H Ha1].
  apply andb_true_iff in H as [H _]. apply andb_true_iff in H as [_ H]. apply Z.eqb_eq in H.
  rewrite forallb_forall in Ha1, Ha2. split; [exact H|]. split; intros Hm; apply mem_In; auto.
Qed.

(* two answers that meet one outcome: the same error up to the order of the Allow list, or two
   invocations; a panic meets no outcome *)
Lemma meets_same S a b :
  meets S (routed_view a) = true -> meets S (routed_view b) = true ->
  match a, b with
  | RInvoke _ _ _, RInvoke _ _ _ => True
  | RError e, RError e' => rerr_equiv e e'
  | _, _ => False
  end.
Proof.
  intros Ha Hb. destruct S as [ids|code al].
  - destruct a as [? ? ?|[]|]; try discriminate Ha. destruct b as [? ? ?|[]|]; try discriminate Hb. exact Logic.I.
  - destruct a as [? ? ?|e|]; try discriminate Ha. destruct b as [? ? ?|e'|]; try discriminate Hb.
    (* the status tells which error *)
    destruct e; apply meets_status in Ha as [<- A1]; destruct e'; apply meets_status in Hb as [E2 A2];
      try discriminate E2; try exact Logic.I.
    intros m. now rewrite <- A1, A2.
Qed.

(* the Allow header of a 405: dedup keeps the set of methods *)
Lemma meets_405 ms : meets (SStatus 405 ms) (1, 405, dedup ms [], [])%Z = true.
Proof.
  cbn. apply andb_true_iff. split; apply forallb_forall; intros m Hm; apply mem_In.
  - apply dedup_In. tauto.
  - now apply dedup_In in Hm as [Hm _].
Qed.

Lemma detect_route_meets l req : meets (spec_cascade l req) (detect_view (detect_route l req)) = true.
Proof.
  rewrite detect_route_eq. unfold spec_cascade.
  destruct (filter conds_hold l) as [|a0 c0]; [reflexivity|].
  destruct (filter _ (a0 :: c0)) as [|a1 c1]; [apply meets_405|].
  destruct (filter _ (filter _ (a1 :: c1))); [|cbn; now rewrite Z.eqb_refl].
  destruct (filter _ (a1 :: c1)); cbn [orb]; destruct (_ || _); try destruct (_ && _); reflexivity.
Qed.

Lemma existsb_perm {A} (p : A -> bool) l l' : Permutation l l' -> existsb p l = existsb p l'.
Proof. induction 1; cbn; try congruence. destruct (p x), (p y); reflexivity. Qed.

Lemma forallb_perm {A} (p : A -> bool) l l' : Permutation l l' -> forallb p l = forallb p l'.
Proof. induction 1; cbn; try congruence. destruct (p x), (p y); reflexivity. Qed.

Lemma mem_perm m l l' : Permutation l l' -> mem m l = mem m l'.
Proof. induction 1; cbn; try congruence. destruct (str_eqb m x), (str_eqb m y); reflexivity. Qed.

(* [meets] sees the lists of an outcome as sets *)
Lemma meets_invoke_perm ids ids' v : Permutation ids ids' -> meets (SInvoke ids) v = meets (SInvoke ids') v.
Proof.
  intros H. destruct v as [[[c st] al] inv]. cbn. destruct inv as [|id [|]]; try reflexivity.
  now rewrite (existsb_perm _ _ _ H).
Qed.

Lemma meets_status_perm code al al' v : Permutation al al' -> meets (SStatus code al) v = meets (SStatus code al') v.
Proof.
  intros H. destruct v as [[[c st] allow] inv]. cbn. rewrite (forallb_perm _ _ _ H). f_equal.
  apply forallb_ext. intros m. now apply mem_perm.
Qed.

Lemma match_nil_perm {A B} (R : B -> B -> Prop) (l l' : list A) a a' b b' :
  Permutation l l' -> R a a' -> R b b' ->
  R (match l with [] => a | _ :: _ => b end) (match l' with [] => a' | _ :: _ => b' end).
Proof.
  intros H Ha Hb. destruct l, l'; auto; [|symmetry in H]; apply Permutation_nil in H; discriminate.
Qed.

Lemma spec_cascade_perm l l' req v :
  Permutation l l' -> meets (spec_cascade l req) v = meets (spec_cascade l' req) v.
Proof.
  intros H. unfold spec_cascade.
  pose proof (Permutation_filter conds_hold _ _ H) as H0.
  pose proof (Permutation_filter (fun r => str_eqb (rq_method req) (r_method r)) _ _ H0) as H1.
  pose proof (Permutation_filter (fun r => matches_content_type r (hget req H_ContentType)) _ _ H1) as H2.
  pose proof (Permutation_filter (fun r => matches_accept r (effective_accept req)) _ _ H2) as H3.
  apply (match_nil_perm (fun s s' => meets s v = meets s' v) _ _ _ _ _ _ H0); [reflexivity|].
  apply (match_nil_perm (fun s s' => meets s v = meets s' v) _ _ _ _ _ _ H1);
    [apply meets_status_perm; now apply Permutation_map|].
  apply (match_nil_perm (fun s s' => meets s v = meets s' v) _ _ _ _ _ _ H3);
    [|apply meets_invoke_perm; now apply Permutation_map].
  now apply (match_nil_perm (fun s s' => meets s v = meets s' v) _ _ _ _ _ _ H2).
Qed.

Section P.
Variable O : oracles.

(* either router: SelectRoute is detectRoute on the candidates [l] of the best service [w]; when these
   are, in some order, the routes [adm] and extraction succeeds on each of them, routing is the cascade on [adm] *)
Lemma outcome_exact t req w l adm :
  select_route O t req = match detect_route l req with inl r => inl (w, r) | inr e => inr e end ->
  Permutation l adm ->
  (forall r, In r adm -> extract_parameters O t w r (rq_path req) <> None) ->
  route_request O t req <> RPanic /\
  meets (spec_cascade adm req) (routed_view (route_request O t req)) = true.
Proof.
  intros Hs Hp Hnp. unfold route_request. rewrite Hs, <- (spec_cascade_perm _ _ req _ Hp).
  pose proof (detect_route_meets l req) as Hd.
  destruct (detect_route l req) as [r|e] eqn:Ed; [|split; [discriminate|exact Hd]].
  apply detect_route_inl in Ed as (Hin & _). apply (Permutation_in _ Hp), Hnp in Hin.
  destruct (extract_parameters O t w r (rq_path req)); [split; [discriminate|exact Hd]|contradiction].
Qed.

Lemma curly_candidates_perm w qts :
  forallb (wf_route w) (s_routes w) = true ->
  Permutation (map cc_route (curly_select_routes O w qts))
              (filter (fun r => admits_path O (route_tpl w r) qts) (s_routes w)).
Proof.
  intros Hwf. unfold curly_select_routes. rewrite forallb_forall in Hwf.
  rewrite (sort_desc_perm cc_lt), (flat_map_filter cc_route _ (fun r => admits_path O (route_tpl w r) qts)); [reflexivity|].
  intros r Hr. fold (cand_of O w qts r). rewrite (cand_of_wf O w qts r (Hwf r Hr)). now destruct (admits_path O (route_tpl w r) qts).
Qed.

Definition curly_expected (t : table) (req : request) : soutcome :=
  match detect_web_service O (tokenize (rq_path req)) (t_services t) with
  | None => SStatus 404 []
  | Some w => spec_cascade (filter (fun r => admits_path O (route_tpl w r) (tokenize (rq_path req))) (s_routes w)) req
  end.

Definition best_wf (t : table) (req : request) : bool :=
  match detect_web_service O (tokenize (rq_path req)) (t_services t) with
  | None => true
  | Some w => forallb (wf_route w) (s_routes w)
  end.

Theorem curly_outcome_exact t req :
  t_router t = Curly -> best_wf t req = true ->
  route_request O t req <> RPanic /\
  meets (curly_expected t req) (routed_view (route_request O t req)) = true.
Proof.
  intros Ht Hwf. unfold best_wf, curly_expected in *. pose proof (select_route_eq O t req) as Hs. rewrite Ht in Hs.
  destruct (detect_web_service O _ _) as [w|].
  - apply (outcome_exact t req w _ _ Hs (curly_candidates_perm w _ Hwf)). intros r [Hr Hadm]%filter_In.
    rewrite forallb_forall in Hwf. unfold extract_parameters.
    now rewrite Ht, (curly_extract_parameters_spec O w r _ (Hwf r Hr) Hadm).
  - unfold route_request. rewrite Hs. split; [discriminate|reflexivity].
Qed.

End P.

(* AgreeProofs.v — C18, the positive half: the two routers give the same outcome.
   On plain templates and a cleanly segmented path the two admission relations and the two binding
   functions coincide, so both answers meet one declarative cascade (C02) and carry the same
   parameters (C04).  For literal roots both routers choose the service with the longest root that
   is a segment prefix of the path.  Both run the same route: each answer is a greatest eligible
   route under its router's Less (C03), so neither dominates the other, and routes of the same shape
   are separated by the same comparison of their path strings in both. *)
From Model Require Import Str Http Template Table Curly Jsr311 Router.
From Spec Require Import RouteSpec RankSpec.
From Proofs Require Import StrFacts SortFacts CurlyProofs RouterProofs ParamProofs OutcomeProofs JsrProofs JsrOutcomeProofs RankProofs RankRouteProofs OrderProofs.
From Coq Require Import Lia.

Lemma strs_eqb_eq a b : strs_eqb a b = true -> a = b.
Proof.
  revert b. induction a as [|x a IH]; intros [|y b] H; try discriminate H; [reflexivity|].
  cbn in H. apply andb_true_iff in H as [H1 H2]. apply str_eqb_eq in H1. subst. f_equal. now apply IH.
Qed.

Lemma strs_eqb_refl l : strs_eqb l l = true.
Proof. induction l as [|x l IH]; [reflexivity|]. cbn. now rewrite str_eqb_refl. Qed.

Definition plain_ne (t : vtok) : bool :=
  match v_tk t, v_verb t with
  | TLit s, None => negb (str_eqb s [])
  | TVar _, None => true
  | _, _ => false
  end.

(* what [plain_ne] accepts: a non-empty literal or a plain variable, without a verb *)
Inductive plain_view : vtok -> Prop :=
| PLit c s : plain_view {| v_tk := TLit (c :: s); v_verb := None |}
| PVar n : plain_view {| v_tk := TVar n; v_verb := None |}.

Lemma plain_neP t : plain_ne t = true -> plain_view t.
Proof. destruct t as [[[|c s]| | | |] [|]]; try discriminate; constructor. Qed.

Lemma plain_tok_eqb_eq a b : plain_tok_eqb a b = true -> a = b /\ plain_ne a = true.
Proof.
  unfold plain_tok_eqb, plain_ne. destruct a as [ka va], b as [kb vb]. cbn.
  destruct ka, va; try discriminate; destruct kb, vb; try discriminate; intros H.
  - apply andb_true_iff in H as [H1 H2]. apply str_eqb_eq in H1. subst. auto.
  - apply str_eqb_eq in H. subst. auto.
Qed.

Lemma forall2b_plain a : forall b, forall2b plain_tok_eqb a b = true -> a = b /\ forallb plain_ne a = true.
Proof.
  induction a as [|x a IH]; intros [|y b] H; try discriminate H; [auto|].
  cbn in H. apply andb_true_iff in H as [H1 H2]. apply plain_tok_eqb_eq in H1 as [-> Hp].
  destruct (IH _ H2) as [-> Hf]. cbn. rewrite Hp, Hf. auto.
Qed.

Lemma plain_not_tail t : plain_ne t = true -> is_tail t = false.
Proof. now intros []%plain_neP. Qed.

Lemma plain_no_verbs tpl : forallb plain_ne tpl = true -> no_verbs tpl = true.
Proof. unfold no_verbs. rewrite !forallb_forall. intros H x Hx. now destruct (plain_neP x (H x Hx)). Qed.

Section P.
Variable O : oracles.

(* RouterJSR311 reads the segments of the path, CurlyRouter its tokens: on a clean path the segments are the tokens, or the
   tokens and one empty segment after a trailing slash ([c18_clean_segs]); hence the two forms *)
Lemma plain_admits_eq tpl : forall toks,
  forallb plain_ne tpl = true -> forallb (fun s => negb (str_eqb s [])) toks = true ->
  jsr_admits_segs O tpl toks = admits_path O tpl toks /\
  jsr_admits_segs O tpl (toks ++ [[]]) = admits_path O tpl toks.
Proof.
  induction tpl as [|t tpl IH]; intros toks Hp Hn.
  - destruct toks as [|s toks]; [split; reflexivity|].
    cbn [forallb] in Hn. apply andb_true_iff in Hn as [Hs _].
    cbn [app jsr_admits_segs admits_path]. destruct s; [discriminate Hs|].
    split; reflexivity.
  - cbn [forallb] in Hp. apply andb_true_iff in Hp as [Ht Hp]. apply plain_neP in Ht.
    destruct toks as [|s toks].
    + (* the empty segment after a trailing slash is no literal, and no variable takes it *)
      destruct Ht; split; reflexivity.
    + cbn [forallb] in Hn. apply andb_true_iff in Hn as [Hs Hn]. destruct (IH toks Hp Hn) as [I1 I2].
      destruct Ht; cbn [app jsr_admits_segs admits_path is_tail v_tk v_verb tk_admits_jsr vtok_admits strip_verb tk_admits];
        rewrite ?Hs, I1, I2; split; reflexivity.
Qed.

(* likewise the bindings, unless there are too few tokens: then the path is not admitted, and the two zips stop at
   different places *)
Lemma plain_bindings_eq tpl : forall toks,
  forallb plain_ne tpl = true ->
  jsr_bindings tpl toks = bindings tpl toks /\ jsr_bindings tpl (toks ++ [[]]) = bindings tpl toks
  \/ List.length toks < List.length tpl.
Proof.
  induction tpl as [|t tpl IH]; intros toks Hp.
  - left. split; reflexivity.
  - cbn [forallb] in Hp. apply andb_true_iff in Hp as [Ht Hp].
    destruct toks as [|s toks]; [right; cbn; lia|].
    destruct (IH toks Hp) as [[I1 I2]|Hlt]; [left|right; cbn; lia].
    destruct (plain_neP t Ht); cbn [app jsr_bindings bindings v_tk]; rewrite I1, I2; split; reflexivity.
Qed.

Lemma admits_path_length tpl toks :
  forallb plain_ne tpl = true -> admits_path O tpl toks = true -> List.length toks = List.length tpl.
Proof.
  revert toks. induction tpl as [|t tpl IH]; intros toks Hp Ha.
  - destruct toks; [reflexivity|discriminate Ha].
  - cbn [forallb] in Hp. apply andb_true_iff in Hp as [Ht Hp].
    destruct toks as [|s toks]; [discriminate Ha|]. cbn [admits_path] in Ha.
    pose proof (plain_not_tail t Ht) as Htail.
    rewrite Htail in Ha. apply andb_true_iff in Ha as [_ Ha]. cbn [List.length]. f_equal. now apply IH.
Qed.

Lemma c18_clean_segs p : c18_clean p = true -> exists segs,
  path_segs p = Some segs /\ forallb (fun s => negb (str_eqb s [])) (tokenize p) = true
  /\ (segs = tokenize p \/ segs = tokenize p ++ [[]]).
Proof.
  unfold c18_clean. destruct (path_segs p) as [segs|]; [|discriminate].
  intros [H1 H2]%andb_true_iff. exists segs. split; [reflexivity|]. split; [exact H1|].
  apply orb_true_iff in H2 as [H2|H2]; apply strs_eqb_eq in H2; auto.
Qed.

Fixpoint is_prefixb (a l : list str) : bool :=
  match a, l with
  | [], _ => true
  | x :: a', y :: l' => str_eqb y x && is_prefixb a' l'
  | _ :: _, [] => false
  end.

Lemma is_prefixb_app a : forall l, is_prefixb a l = true -> exists rest, l = a ++ rest.
Proof.
  induction a as [|x a IH]; intros l H; [now exists l|]. destruct l as [|y l]; [discriminate|].
  cbn in H. apply andb_true_iff in H as [H1 H2]. apply str_eqb_eq in H1. subst. destruct (IH _ H2) as (rest & ->). now exists rest.
Qed.

Lemma prefixes_comparable a b l : is_prefixb a l = true -> is_prefixb b l = true ->
  exists ext, b = a ++ ext \/ a = b ++ ext.
Proof.
  intros Ha Hb. apply is_prefixb_app in Ha as (ra & ->). apply is_prefixb_app in Hb as (rb & Hb).
  apply app_eq_app in Hb as (ext & [[-> _]|[-> _]]); exists ext; auto.
Qed.

Lemma is_prefixb_snoc_empty a : forall l, forallb lit_tok a = true -> is_prefixb a (l ++ [[]]) = is_prefixb a l.
Proof.
  induction a as [|x a IH]; intros l H; [reflexivity|]. cbn in H. apply andb_true_iff in H as [Hx Ha].
  destruct l as [|y l]; cbn.
  - unfold lit_tok in Hx. destruct x; [discriminate Hx|reflexivity].
  - now rewrite IH.
Qed.

(* the root of [w] is a segment prefix of [qts], and no such root of [wss] properly extends it *)
Definition longest_root (wss : list service) (qts : list str) (w : service) : Prop :=
  In w wss /\ is_prefixb (tokenize (s_root w)) qts = true /\
  forall w' ext, In w' wss -> is_prefixb (tokenize (s_root w')) qts = true -> ext <> [] ->
                 tokenize (s_root w') <> tokenize (s_root w) ++ ext.

(* two prefixes of one list: one extends the other, and neither may *)
Lemma longest_root_unique wss qts w w' :
  roots_distinct wss = true -> longest_root wss qts w -> longest_root wss qts w' -> w = w'.
Proof.
  intros Hdis (Hin & Hp & Hmax) (Hin' & Hp' & Hmax').
  assert (Htok : tokenize (s_root w) = tokenize (s_root w')).
  { destruct (prefixes_comparable _ _ _ Hp Hp') as ([|t ext] & [Hext|Hext]); rewrite ?app_nil_r in Hext; auto.
    - destruct (Hmax w' (t :: ext) Hin' Hp' ltac:(discriminate) Hext).
    - destruct (Hmax' w (t :: ext) Hin Hp ltac:(discriminate) Hext). }
  destruct (pairwise_In _ _ _ _ Hdis Hin Hin') as [Heq|[Hd|Hd]]; [exact Heq| |]; rewrite Htok, strs_eqb_refl in Hd; discriminate Hd.
Qed.

Lemma groups_lits l : groups_of_toks (map ELit l) = 0.
Proof. induction l; [reflexivity|assumption]. Qed.

Lemma ws_score_loop_lit n rt : forall qts i sc,
  forallb lit_tok rt = true -> fst (ws_score_loop O n qts rt i sc) = is_prefixb rt qts.
Proof.
  induction rt as [|other rt IH]; intros qts i sc H; [reflexivity|].
  cbn [forallb] in H. apply andb_true_iff in H as [Ho Hrt]. unfold lit_tok in Ho. apply andb_true_iff in Ho as [Hp Hne].
  apply negb_true_iff in Hp. cbn [ws_score_loop is_prefixb]. destruct qts as [|each qts]; [reflexivity|].
  destruct other as [|o0 or]; [discriminate Hne|].
  destruct each as [|e0 er].
  - rewrite Hp. reflexivity.
  - rewrite Hp. destruct (str_eqb (e0 :: er) (o0 :: or)); [now apply IH|reflexivity].
Qed.

Lemma claims_lit qts w : forallb lit_tok (tokenize (s_root w)) = true -> claims O qts w = is_prefixb (tokenize (s_root w)) qts.
Proof.
  intros H. unfold claims, compute_webservice_score. set (rt := tokenize (s_root w)) in *. destruct (Nat.ltb (List.length qts) (List.length rt)) eqn:E.
  - apply Nat.ltb_lt in E. destruct (is_prefixb rt qts) eqn:Ep; [|reflexivity].
    apply is_prefixb_app in Ep as (rest & ->). rewrite app_length in E. lia.
  - now apply ws_score_loop_lit.
Qed.

(* the greatest score goes to the longest root: an extension of a claiming root that claims scores higher *)
Lemma curly_longest_root wss qts :
  roots_literal wss = true ->
  match detect_web_service O qts wss with
  | Some w => longest_root wss qts w
  | None => forall w, In w wss -> is_prefixb (tokenize (s_root w)) qts = false
  end.
Proof.
  intros Hlit. unfold roots_literal in Hlit. rewrite forallb_forall in Hlit.
  pose proof (detect_web_service_spec O qts wss) as S. destruct (detect_web_service O qts wss) as [w|].
  - destruct S as (Hin & Hcl & Hmax). split; [exact Hin|]. split; [now rewrite <- claims_lit by auto|].
    intros w' ext Hin' Hp' Hne Hext. rewrite <- claims_lit in Hp' by auto.
    pose proof (Hmax w' Hin' Hp') as Hle. unfold claims, score in Hle, Hcl, Hp'. rewrite Hext in Hle, Hp'.
    pose proof (score_longer_root_beats_prefix O _ _ ext Hne Hcl Hp'). lia.
  - intros w Hin. rewrite <- claims_lit by auto. now apply S.
Qed.

Lemma pe_toks_lits root : forallb lit_tok (tokenize root) = true ->
  pe_toks (path_expression root) = map ELit (tokenize root).
Proof.
  unfold path_expression. cbn [pe_toks]. intros H. induction (tokenize root) as [|t l IH]; [reflexivity|].
  cbn [forallb] in H. apply andb_true_iff in H as [Ht Hl]. unfold lit_tok in Ht. apply andb_true_iff in Ht as [Hp Hne].
  cbn [filter]. rewrite Hne. cbn [map]. rewrite (IH Hl). unfold etok_of. apply negb_true_iff in Hp. now rewrite Hp.
Qed.

Lemma jsr_match_lits rt : forall p1,
  match jsr_match O (map ELit rt) (slash :: p1) with
  | Some (caps, _) => caps = [] /\ is_prefixb rt (split slash p1) = true
  | None => is_prefixb rt (split slash p1) = false
  end.
Proof.
  induction rt as [|s rt IH]; intros p1; [now split|]. cbn [map]. rewrite jsr_match_cons, Ascii.eqb_refl.
  cbn [negb is_eall seg_ok cap app]. destruct (span_seg p1) as [seg rest] eqn:Es. apply span_seg_split in Es as (_ & Hr & ->).
  cbn [is_prefixb]. destruct (str_eqb seg s); [|reflexivity]. destruct rest as [|c r1]; [now destruct rt|].
  apply Ascii.eqb_eq in Hr. subst c. specialize (IH r1). cbn [segs_of andb].
  destruct (jsr_match O (map ELit rt) (slash :: r1)) as [[caps fin]|]; [now destruct IH as [-> ->]|exact IH].
Qed.

(* RouterJSR311's counterpart of RankProofs.score_longer_root_beats_prefix *)
Lemma lit_chars_longer root ext : ext <> [] -> forallb lit_tok (root ++ ext) = true ->
  lit_chars (map ELit root) < lit_chars (map ELit (root ++ ext)).
Proof.
  intros Hne. unfold lit_chars. induction root as [|t root IH]; cbn [app map forallb fold_right].
  - destruct ext as [|[|c s] ext]; [congruence|discriminate|]. cbn. lia.
  - intros [_ H]%andb_true_iff. specialize (IH H). lia.
Qed.

Lemma clean_prefix p rt :
  c18_clean p = true -> forallb lit_tok rt = true ->
  exists p1, p = slash :: p1 /\ is_prefixb rt (split slash p1) = is_prefixb rt (tokenize p).
Proof.
  intros Hc Hl. destruct (c18_clean_segs p Hc) as (segs & Hps & _ & Hsegs). unfold path_segs in Hps.
  destruct p as [|c p1]; [discriminate Hps|]. destruct (Ascii.eqb_spec c slash) as [->|]; [|discriminate Hps].
  injection Hps as <-. exists p1. split; [reflexivity|]. destruct Hsegs as [->| ->]; [reflexivity|now apply is_prefixb_snoc_empty].
Qed.

(* RouterJSR311's counterpart of claims_lit: the candidate of a literal root on a clean path *)
Lemma lit_root_cands p w : c18_clean p = true -> forallb lit_tok (tokenize (s_root w)) = true ->
  exists fin, dcand_of O p w =
    if is_prefixb (tokenize (s_root w)) (tokenize p)
    then [{| dc_ws := w; dc_final := fin; dc_matches := 2; dc_literal := lit_chars (map ELit (tokenize (s_root w)));
             dc_nondef := pe_vars (path_expression (s_root w)) |}]
    else [].
Proof.
  intros Hc Hl. destruct (clean_prefix p _ Hc Hl) as (p1 & -> & <-).
  unfold dcand_of. rewrite pe_groups_toks, pe_literal_sum, (pe_toks_lits _ Hl), groups_lits.
  pose proof (jsr_match_lits (tokenize (s_root w)) p1) as M.
  destruct (jsr_match O (map ELit (tokenize (s_root w))) (slash :: p1)) as [[caps fin]|]; [|rewrite M; now exists []].
  destruct M as [-> ->]. now exists fin.
Qed.

(* the first candidate belongs to the longest root: an extension of a matching root that matches has more
   literal characters and as many matches *)
Lemma jsr_longest_root wss p :
  roots_literal wss = true -> c18_clean p = true ->
  match detect_dispatcher O p wss with
  | Some (w, _) => longest_root wss (tokenize p) w
  | None => forall w, In w wss -> is_prefixb (tokenize (s_root w)) (tokenize p) = false
  end.
Proof.
  intros Hlit Hclean. unfold roots_literal in Hlit. rewrite forallb_forall in Hlit.
  pose proof (fun w Hin => lit_root_cands p w Hclean (Hlit w Hin)) as J.
  pose proof (detect_dispatcher_spec O p wss) as S. destruct (detect_dispatcher O p wss) as [[w fin]|].
  - destruct S as (Hin & c & Hc & Hmax). destruct (J w Hin) as (f & Ed). rewrite Ed in Hc.
    destruct (is_prefixb (tokenize (s_root w)) (tokenize p)) eqn:Hp; [|contradiction]. destruct Hc as [<-|[]].
    split; [exact Hin|]. split; [exact Hp|]. intros w' ext Hin' Hp' Hne Hext.
    destruct (J w' Hin') as (f' & Ed'). rewrite Hp' in Ed'.
    pose proof (Hmax w' _ Hin' ltac:(rewrite Ed'; now left)) as Hlt.
    rewrite dc_lt_literal in Hlt; [discriminate Hlt|reflexivity|]. cbn [dc_literal].
    pose proof (Hlit _ Hin') as Hl. rewrite Hext in Hl |- *. exact (lit_chars_longer _ ext Hne Hl).
  - intros w Hin. destruct (J w Hin) as (f & Ed). rewrite (S w Hin) in Ed. now destruct (is_prefixb _ _).
Qed.

(* For literal root paths and a cleanly segmented URL both routers hand the request to the same
   WebService: the one with the longest root that is a segment prefix of the URL (CurlyRouter: greatest
   score; RouterJSR311: most literal characters). *)
Theorem same_service wss p :
  roots_literal wss = true -> roots_distinct wss = true -> c18_clean p = true ->
  match detect_web_service O (tokenize p) wss, detect_dispatcher O p wss with
  | Some w, Some (w', _) => w = w'
  | None, None => True
  | _, _ => False
  end.
Proof.
  intros Hlit Hdis Hclean.
  pose proof (curly_longest_root wss (tokenize p) Hlit) as Sc. pose proof (jsr_longest_root wss p Hlit Hclean) as Sj.
  destruct (detect_web_service O (tokenize p) wss) as [w|]; destruct (detect_dispatcher O p wss) as [[w' fin]|].
  - exact (longest_root_unique _ _ _ _ Hdis Sc Sj).
  - destruct Sc as (Hin & Hp & _). now rewrite (Sj w Hin) in Hp.
  - destruct Sj as (Hin & Hp & _). now rewrite (Sc w' Hin) in Hp.
  - exact Logic.I.
Qed.

Lemma tpl_ge_refl a : tpl_ge a a = true.
Proof.
  induction a as [|x a IH]; [reflexivity|]. cbn. rewrite IH, andb_true_r.
  unfold is_lit. destruct (v_tk x); try reflexivity. apply str_eqb_refl.
Qed.

Lemma tpl_ge_app a : forall b x y,
  List.length a = List.length b -> tpl_ge (a ++ x) (b ++ y) = tpl_ge a b && tpl_ge x y.
Proof.
  induction a as [|s a IH]; intros [|t b] x y H; try discriminate H; [reflexivity|].
  cbn [app tpl_ge]. injection H as H. now rewrite (IH _ _ _ H), andb_assoc.
Qed.

Lemma dominates_app_same a x y : dominates (a ++ x) (a ++ y) = dominates x y.
Proof. unfold dominates. now rewrite !tpl_ge_app, tpl_ge_refl. Qed.

Lemma tpl_ge_length a : forall b, tpl_ge a b = true -> List.length a = List.length b.
Proof.
  induction a as [|x a IH]; intros [|y b] H; try discriminate H; [reflexivity|].
  cbn in H. apply andb_true_iff in H as [_ H]. cbn. f_equal. now apply IH.
Qed.

(* twins ([tpl_ge] both ways) have the same counts ... *)
Lemma twins_same_counts a b : tpl_ge a b = true -> tpl_ge b a = true ->
  count_lit a = count_lit b /\ n_params a = n_params b.
Proof.
  intros H1 H2. pose proof (tpl_ge_count _ _ H1). pose proof (tpl_ge_count _ _ H2).
  pose proof (tpl_ge_length _ _ H1). pose proof (n_params_count a). pose proof (n_params_count b). lia.
Qed.

(* ... and, when plain, compile to the same expression *)
Lemma twins_same_toks ea a : forall eb b,
  Forall2 tok_rel ea a -> Forall2 tok_rel eb b -> forallb plain_ne a = true -> forallb plain_ne b = true ->
  tpl_ge a b = true -> tpl_ge b a = true -> ea = eb.
Proof.
  intros eb b Ha. revert eb b. induction Ha as [|ex x ea a Hx Ha IH]; intros eb b Hb; inversion Hb as [|ey y eb' b' Hy Hb'];
    try discriminate; [reflexivity|].
  cbn [forallb tpl_ge]. intros Pa Pb G1 G2.
  apply andb_true_iff in Pa as [Px Pa]. apply andb_true_iff in Pb as [Py Pb].
  apply andb_true_iff in G1 as [Gx G1]. apply andb_true_iff in G2 as [Gy G2].
  f_equal; [|now apply (IH eb' b')].
  unfold tok_rel in Hx, Hy. destruct (plain_neP x Px), (plain_neP y Py); cbn [conv v_tk is_lit] in Hx, Hy, Gx, Gy; try discriminate; [|congruence].
  apply str_eqb_eq in Gx. congruence.
Qed.

(* so on the candidates of twins either Less comes down to the path strings *)
Lemma ccand_twins_lt w r r' :
  no_verbs (route_tpl w r) = true -> no_verbs (route_tpl w r') = true ->
  tpl_ge (route_tpl w r) (route_tpl w r') = true -> tpl_ge (route_tpl w r') (route_tpl w r) = true ->
  cc_lt (ccand w r) (ccand w r') = str_ltb (route_path w r) (route_path w r').
Proof.
  intros Hnv Hnv' G G'. destruct (twins_same_counts _ _ G G') as [Ql Qn].
  unfold cc_lt. cbn [ccand cc_static cc_param cc_path]. now rewrite !n_statics_no_verbs, Ql, Qn, !Nat.ltb_irrefl.
Qed.

Lemma jcand_twins_lt w r r' :
  pe_toks (path_expression (r_rel r)) = pe_toks (path_expression (r_rel r')) ->
  rc_lt (jcand w r) (jcand w r') = str_ltb (route_path w r) (route_path w r').
Proof. intros E. unfold rc_lt, jcand. cbn [rc_literal rc_matches rc_nondef rc_path]. now rewrite E, !Nat.ltb_irrefl. Qed.

Lemma jsr_admits_path_segs w r p segs :
  path_segs p = Some segs -> jsr_admits_path O w r p = jsr_admits_segs O (jsr_tpl (s_root w) ++ jsr_tpl (r_rel r)) segs.
Proof. unfold jsr_admits_path. destruct p; [discriminate|]. now intros ->. Qed.

(* both routers hand the request to the service w, on which they read templates and path alike *)
Section Chosen.
Variables (wss : list service) (req : request) (w : service) (fin : str).
Let tc := {| t_router := Curly; t_services := wss |}.
Let tj := {| t_router := Jsr311; t_services := wss |}.
Hypothesis Hws : detect_web_service O (tokenize (rq_path req)) wss = Some w.
Hypothesis Hdd : detect_dispatcher O (rq_path req) wss = Some (w, fin).
Hypothesis Hwf : forallb (wf_route w) (s_routes w) = true.
Hypothesis Hag : jsr_all_agree w = true.
Hypothesis Hna : forallb (jsr_names_agree w) (s_routes w) = true.
Hypothesis Hok : c18_service_ok w = true.
Hypothesis Hclean : c18_clean (rq_path req) = true.

Lemma route_tpl_split r : In r (s_routes w) ->
  route_tpl w r = jsr_tpl (s_root w) ++ jsr_tpl (r_rel r) /\ forallb plain_ne (route_tpl w r) = true.
Proof.
  intros Hin. unfold c18_service_ok in Hok. rewrite forallb_forall in Hok. apply Hok in Hin.
  unfold c18_route_ok in Hin. now apply forall2b_plain in Hin.
Qed.

Lemma admits_path_agree r : In r (s_routes w) ->
  jsr_admits_path O w r (rq_path req) = admits_path O (route_tpl w r) (tokenize (rq_path req)).
Proof.
  intros Hin. destruct (route_tpl_split r Hin) as [Hsplit Hplain].
  destruct (c18_clean_segs _ Hclean) as (segs & Hps & Hne & Hsegs). rewrite (jsr_admits_path_segs w r _ segs Hps), <- Hsplit.
  destruct (plain_admits_eq (route_tpl w r) _ Hplain Hne) as [E1 E2].
  destruct Hsegs as [->| ->]; assumption.
Qed.

Lemma admits_agree r : In r (s_routes w) -> jsr_admits O w r req = admits O w r req.
Proof. intros Hin. unfold jsr_admits, admits. now rewrite (admits_path_agree r Hin). Qed.

Lemma bindings_agree r : In r (s_routes w) ->
  admits_path O (route_tpl w r) (tokenize (rq_path req)) = true ->
  jsr_route_bindings w r (rq_path req) = bindings (route_tpl w r) (tokenize (rq_path req)).
Proof.
  intros Hin Ha. destruct (route_tpl_split r Hin) as [Hsplit Hplain].
  destruct (c18_clean_segs _ Hclean) as (segs & Hps & Hne & Hsegs).
  unfold jsr_route_bindings. rewrite Hps, <- Hsplit.
  destruct (plain_bindings_eq (route_tpl w r) (tokenize (rq_path req)) Hplain) as [[E1 E2]|Hlt].
  - destruct Hsegs as [->| ->]; assumption.
  - apply (admits_path_length _ _ Hplain) in Ha. lia.
Qed.

(* an invocation under either router: of a route of w that admits the request, with the bindings of
   CurlyRouter's reading as parameters *)
Lemma curly_invocation wc rc ps :
  route_request O tc req = RInvoke wc rc ps ->
  wc = w /\ select_route O tc req = inl (w, rc) /\ In rc (s_routes w) /\ admits O w rc req = true /\
  ps = pset_all (bindings (route_tpl w rc) (tokenize (rq_path req))) [].
Proof.
  intros E. destruct (proj1 (route_request_invoke O _ _ _ _ _) E) as [Es _].
  destruct (select_route_inl O tc req wc rc Es) as [Hw _]. cbn [t_services tc] in Hw. rewrite Hws in Hw. injection Hw as <-.
  destruct (curly_invoked_admits O tc req w rc ps eq_refl E) as (_ & Hin & Had).
  rewrite forallb_forall in Hwf. specialize (Hwf _ Hin).
  repeat split; auto. exact (curly_invoked_params O tc req w rc ps eq_refl E Hwf).
Qed.

Lemma jsr_invocation wj rj ps :
  route_request O tj req = RInvoke wj rj ps ->
  wj = w /\ select_route O tj req = inl (w, rj) /\ In rj (s_routes w) /\ admits O w rj req = true /\
  ps = pset_all (bindings (route_tpl w rj) (tokenize (rq_path req))) [].
Proof.
  intros E. destruct (proj1 (route_request_invoke O _ _ _ _ _) E) as [Es _].
  destruct (select_route_inl O tj req wj rj Es) as (fin' & Hw & Hdr). cbn [t_services tj] in Hw. rewrite Hdd in Hw. injection Hw as <- _.
  destruct (jsr_detected O _ _ _ _ Hdr) as [Hin _].
  assert (Hagr : jsr_tokens_agree w rj = true).
  { apply andb_true_iff in Hag as [Hagw Hrs]. rewrite forallb_forall in Hrs. unfold jsr_tokens_agree. now rewrite Hagw, (Hrs _ Hin). }
  destruct (jsr_select_route_sound O tj req w rj eq_refl Es Hagr) as (_ & _ & Had).
  rewrite (admits_agree rj Hin) in Had. rewrite forallb_forall in Hna.
  rewrite (jsr_invoked_params O tj req w rj ps eq_refl E Hagr (Hna _ Hin)), (bindings_agree rj Hin); [repeat split; auto|].
  rewrite admits_passes in Had. now apply andb_true_iff in Had as [Had _].
Qed.

(* the agreement theorem, with the step "both routers run the same route", for two answers as the invocation lemmas
   describe them, left as a premise *)
Theorem agree_if_same_route :
  (forall rc rj, select_route O tc req = inl (w, rc) -> select_route O tj req = inl (w, rj) ->
                 In rc (s_routes w) -> In rj (s_routes w) ->
                 admits O w rc req = true -> admits O w rj req = true -> rc = rj) ->
  routed_equiv (route_request O tc req) (route_request O tj req).
Proof.
  intros Hsame.
  (* both answers meet the same declarative outcome: the same error, or two invocations *)
  destruct (curly_outcome_exact O tc req eq_refl) as [_ Hmc]; [unfold best_wf; cbn [t_services tc]; now rewrite Hws|].
  destruct (jsr_outcome_exact O tj req eq_refl) as [_ Hmj]; [unfold jsr_best_agree; cbn [t_services tj]; now rewrite Hdd|].
  unfold curly_expected in Hmc. unfold jsr_expected in Hmj. cbn [t_services tc tj] in Hmc, Hmj. rewrite Hws in Hmc. rewrite Hdd in Hmj.
  rewrite (filter_ext_in _ _ _ admits_path_agree) in Hmj.
  pose proof (meets_same _ _ _ Hmc Hmj) as Hm.
  destruct (route_request O tc req) as [wc rc psc|ec|] eqn:Ec; destruct (route_request O tj req) as [wj rj psj|ej|] eqn:Ej;
    try contradiction; [|exact Hm].
  destruct (curly_invocation _ _ _ Ec) as (-> & Esc & Hinc & Hadc & ->). destruct (jsr_invocation _ _ _ Ej) as (-> & Esj & Hinj & Hadj & ->).
  rewrite (Hsame rc rj Esc Esj Hinc Hinj Hadc Hadj). repeat split.
Qed.

Section Answers.
Variables rc rj : route.
Hypothesis Esc : select_route O tc req = inl (w, rc).
Hypothesis Esj : select_route O tj req = inl (w, rj).
Hypothesis Hinc : In rc (s_routes w).
Hypothesis Hinj : In rj (s_routes w).
Hypothesis Hadc : admits O w rc req = true.
Hypothesis Hadj : admits O w rj req = true.

(* neither answer dominates the other: RouterJSR311 would not have answered rj, CurlyRouter not rc *)
Lemma selected_not_dominated :
  dominates (route_tpl w rc) (route_tpl w rj) = false /\ dominates (route_tpl w rj) (route_tpl w rc) = false.
Proof.
  destruct (route_tpl_split rc Hinc) as [Sc Pc]. destruct (route_tpl_split rj Hinj) as [Sj Pj].
  rewrite forallb_forall in Hwf. split.
  - rewrite Sc, Sj, dominates_app_same. apply (jsr_select_route_not_dominated O tj req w rj eq_refl Esj Hag rc Hinc).
    now rewrite (admits_agree rc Hinc).
  - apply (curly_select_route_not_dominated O tc req w rc eq_refl Esc rj Hinj); auto using plain_no_verbs.
Qed.

(* twins: both routers compare the paths, CurlyRouter finds rj's not greater, RouterJSR311 rc's not greater *)
Lemma twins_same_path :
  tpl_ge (route_tpl w rc) (route_tpl w rj) = true -> tpl_ge (route_tpl w rj) (route_tpl w rc) = true ->
  route_path w rc = route_path w rj.
Proof.
  intros Gcj Gjc.
  destruct (route_tpl_split rc Hinc) as [Sc Pc]. destruct (route_tpl_split rj Hinj) as [Sj Pj].
  rewrite forallb_forall in Hwf. apply (proj2 (proj2 str_ltb_strict)).
  - rewrite <- (ccand_twins_lt w rc rj) by auto using plain_no_verbs.
    apply (curly_selected_greatest O tc req w rc eq_refl Esc); auto.
  - rewrite <- (jcand_twins_lt w rj rc).
    + apply (jsr_selected_greatest O tj req w rj eq_refl Esj Hag); [exact Hinc|].
      now rewrite (admits_agree rc Hinc).
    + apply andb_true_iff in Hag as [_ Hrs]. rewrite forallb_forall in Hrs.
      rewrite Sc, Sj, tpl_ge_app, tpl_ge_refl in Gcj, Gjc by reflexivity. rewrite Sc in Pc. rewrite Sj in Pj.
      rewrite forallb_app in Pc, Pj. apply andb_true_iff in Pc as [_ Pc]. apply andb_true_iff in Pj as [_ Pj].
      exact (twins_same_toks _ _ _ _ (tokens_agree_rel _ (Hrs _ Hinj)) (tokens_agree_rel _ (Hrs _ Hinc)) Pj Pc Gjc Gcj).
Qed.

(* the eligible routes strictly ordered: neither answer is dominated, so they are the same route *)
Lemma chain_same_route : c18_chain O w req = true -> rc = rj.
Proof.
  intros Hchain. destruct selected_not_dominated as [N1 N2].
  destruct (pairwise_In _ (filter (fun r => admits O w r req) (s_routes w)) rc rj Hchain) as [E|[D|D]];
    try (apply filter_In; auto); [exact E| |]; rewrite N1, N2 in D; discriminate D.
Qed.

(* twins allowed: comparable and not dominated, so twins: the same path, and both have the request's method *)
Lemma weak_chain_same_route :
  distinct (map (route_key w) (s_routes w)) = true -> c18_chain_weak O w req = true -> rc = rj.
Proof.
  intros Hd Hchain. destruct selected_not_dominated as [N1 N2].
  destruct (pairwise_In _ (filter (fun r => admits O w r req) (s_routes w)) rc rj Hchain) as [E|D];
    try (apply filter_In; auto); [exact E|].
  unfold dominates in N1, N2.
  destruct (tpl_ge (route_tpl w rc) (route_tpl w rj)) eqn:Gcj, (tpl_ge (route_tpl w rj) (route_tpl w rc)) eqn:Gjc; try discriminate;
    [|now destruct D].
  apply (NoDup_map_inj (route_key w) _ _ _ (distinct_NoDup _ Hd) Hinc Hinj). unfold route_key. rewrite (twins_same_path Gcj Gjc).
  rewrite admits_passes in Hadc, Hadj. apply andb_true_iff in Hadc as [_ Pc]. apply andb_true_iff in Hadj as [_ Pj].
  now rewrite (passes_method _ _ Pc), (passes_method _ _ Pj).
Qed.
End Answers.

(* C18, the eligible routes strictly ordered *)
Theorem routers_agree :
  c18_chain O w req = true -> routed_equiv (route_request O tc req) (route_request O tj req).
Proof. intros Hchain. apply agree_if_same_route. intros rc rj Esc Esj Hinc Hinj Hadc Hadj. now apply (chain_same_route rc rj). Qed.

(* C18 with twins: the chain premise weakened, distinct (method, path) pairs added *)
Theorem routers_agree_twins :
  distinct (map (route_key w) (s_routes w)) = true -> c18_chain_weak O w req = true ->
  routed_equiv (route_request O tc req) (route_request O tj req).
Proof. intros Hd Hchain. apply agree_if_same_route. intros rc rj Esc Esj Hinc Hinj Hadc Hadj. now apply (weak_chain_same_route rc rj). Qed.
End Chosen.

(* ... and without the premise that both routers chose one service: for literal roots they do, or both answer 404 *)
Lemma agree_literal_roots wss req :
  roots_literal wss = true -> roots_distinct wss = true -> c18_clean (rq_path req) = true ->
  (forall w fin, detect_web_service O (tokenize (rq_path req)) wss = Some w -> detect_dispatcher O (rq_path req) wss = Some (w, fin) ->
     routed_equiv (route_request O {| t_router := Curly; t_services := wss |} req)
                  (route_request O {| t_router := Jsr311; t_services := wss |} req)) ->
  routed_equiv (route_request O {| t_router := Curly; t_services := wss |} req)
               (route_request O {| t_router := Jsr311; t_services := wss |} req).
Proof.
  intros Hl Hd Hc Hw. pose proof (same_service wss (rq_path req) Hl Hd Hc) as Hs.
  destruct (detect_web_service O (tokenize (rq_path req)) wss) as [w|] eqn:E;
  destruct (detect_dispatcher O (rq_path req) wss) as [[w' fin]|] eqn:E'; try contradiction.
  - subst w'. now apply (Hw w fin).
  - unfold route_request. rewrite !select_route_eq. cbn [t_router t_services]. rewrite E, E'. exact Logic.I.
Qed.

End P.

(* BuilderProofs.v — C05, registration-time values: what a route inherited from its WebService is fixed when the route is added. *)
From Model Require Import Str Table Builder.
From Proofs Require Import StrFacts.

Lemma ws_run_app s a b : ws_run s (a ++ b) = ws_run (ws_run s a) b.
Proof. unfold ws_run. apply fold_left_app. Qed.

(* later calls only ever append *)
Lemma routes_prefix ops : forall s, exists added, w_routes (ws_run s ops) = w_routes s ++ added.
Proof.
  induction ops as [|op ops IH]; intros s; cbn [ws_run fold_left].
  - exists []. now rewrite app_nil_r.
  - destruct (IH (ws_step s op)) as [added Ha]. unfold ws_run in Ha. rewrite Ha.
    destruct op as [l|l|r]; cbn [ws_step w_routes].
    + now exists added.
    + now exists added.
    + exists (copy_defaults s r :: added). now rewrite <- app_assoc.
Qed.

Lemma ws_run_lists ops : forall s,
  w_prod (ws_run s ops) = last_produces ops (w_prod s) /\ w_cons (ws_run s ops) = last_consumes ops (w_cons s).
Proof. induction ops as [|op ops IH]; intros s; [now split|]. destruct op; exact (IH (ws_step s _)). Qed.

(* the route added after the history [before] is, in the finished service and whatever calls follow, the builder's
   route with the lists that were in force after [before] *)
Theorem route_keeps_what_it_inherited before after r :
  let s := ws_build before in
  let final := ws_build (before ++ BRoute r :: after) in
  nth_error (w_routes final) (length (w_routes s)) = Some (copy_defaults s r) /\
  firstn (length (w_routes s)) (w_routes final) = w_routes s /\
  r_produces (copy_defaults s r) = inherit (last_produces before []) (r_produces r) /\
  r_consumes (copy_defaults s r) = inherit (last_consumes before []) (r_consumes r).
Proof.
  intros s final. unfold final, ws_build. rewrite ws_run_app. fold (ws_build before). fold s.
  change (ws_run s (BRoute r :: after)) with (ws_run (ws_step s (BRoute r)) after).
  destruct (routes_prefix after (ws_step s (BRoute r))) as [added Ha]. rewrite Ha.
  cbn [ws_step w_routes]. rewrite <- app_assoc. split; [|split].
  - rewrite nth_error_app2 by apply le_n. now rewrite Nat.sub_diag.
  - apply firstn_app_l.
  - destruct (ws_run_lists before ws_init) as [Hp Hc]. cbn [copy_defaults r_produces r_consumes].
    unfold s, ws_build. now rewrite Hp, Hc.
Qed.

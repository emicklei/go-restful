(* ServeProofs.v — request-level statements on the model of Container.dispatch / ServeHTTP: the order of events
   and the attributes of a whole request (C06), its compressor ledger (C07, C10); at the end what scripts keep of
   the writer while a compressor is installed (C07_no_bypass) and of a status once written (C10_once). *)
From Model Require Import Str Http Table Router Dispatch.
From Spec Require Import DispatchSpec.
From Proofs Require Import StrFacts DispatchProofs.

Lemma slog_install c s : slog (install c s) = slog s. Proof. reflexivity. Qed.
Lemma slog_install_wanted already enabled req s : slog (install_wanted already enabled req s) = slog s.
Proof. apply (inv_install_wanted (fun x => slog x = slog s)); [reflexivity|intros c; apply slog_install]. Qed.
Lemma slog_close_comp s : slog (close_comp s) = slog s.
Proof. now rewrite close_comp_eq. Qed.

Section Serve.
Variable O : oracles.

Definition enabled_for (cfg : dcfg) (r : route) : bool :=
  match r_enc r with Some b => b | None => d_encoding cfg end.

Lemma cfg_panic_free_parts cfg :
  cfg_has_panic cfg = false ->
  forallb fscript_panic_free (d_cfilters cfg) = true /\
  (forall w r, forallb fscript_panic_free (route_filters cfg w r) = true /\ panic_free (handler_of cfg r) = true) /\
  forall req, cond_panic_hit O cfg req = false.
Proof.
  unfold cfg_has_panic. intros H. apply orb_false_elim in H as [H _]. apply orb_false_elim in H as [H Hcp].
  apply orb_false_elim in H as [H Hh]. apply orb_false_elim in H as [H Hr]. apply orb_false_elim in H as [Hc Hs].
  split; [exact (existsb_false_forallb _ _ Hc)|]. split.
  - split.
    + apply (existsb_false_forallb fscript_has_panic), (route_filters_all (fun l => existsb fscript_has_panic l = false));
        [reflexivity| |exact Hc|exact (existsb_false_In _ _ Hs)|exact (existsb_false_In _ _ Hr)].
      intros l1 l2 H1 H2. now apply existsb_app_false.
    + apply (handler_of_all (fun l => panic_free l = true)); [reflexivity|].
      intros x Hin. unfold panic_free. now rewrite (existsb_false_In _ _ Hh x Hin).
  - intros req. unfold cond_panic_hit. destruct (d_condpanic cfg); [|discriminate]. cbn [existsb andb].
    apply andb_false_iff. right. induction (path_candidates O (d_table cfg) req); [reflexivity|assumption].
Qed.

(* dispatch_body on a request that selection does not panic on, in the words of route_request *)
Lemma dispatch_body_routed cfg req already s :
  cond_panic_hit O cfg req = false ->
  match route_request O (d_table cfg) req with
  | RInvoke w r ps =>
      dispatch_body O cfg req already s =
      run_chain (route_filters cfg w r) (handler_target cfg r)
        (upd_attrs (install_wanted already (enabled_for cfg r) req s) [(K_sel, route_path w r); (K_params, of_params_log ps)])
  | RError e => dispatch_body O cfg req already s = run_chain (d_cfilters cfg) (write_service_error e) s
  | RPanic => True
  end.
Proof.
  intros Hcp. unfold route_request. destruct (select_route O (d_table cfg) req) as [[w r]|e] eqn:Es.
  - destruct (extract_parameters O (d_table cfg) w r (rq_path req)) eqn:Ep; [|exact I].
    rewrite dispatch_body_eq, Hcp, Es. unfold serve_route. now rewrite Ep.
  - now rewrite dispatch_body_eq, Hcp, Es.
Qed.

Lemma write_service_error_events e s0 :
  exists s1, write_service_error e s0 = Done s1 /\ slog s1 = slog s0 ++ [].
Proof. rewrite write_service_error_eq, app_nil_r. apply slog_run_actions. now destruct e. Qed.

Lemma handler_target_events cfg r s0 :
  panic_free (handler_of cfg r) = true ->
  exists s1, handler_target cfg r s0 = Done s1 /\ slog s1 = slog s0 ++ [L "H:" ++ itoa (r_id r)].
Proof.
  intros Hh. unfold handler_target. edestruct (slog_run_actions (handler_of cfg r)) as (s1 & E1 & L1); [exact Hh|].
  exists s1. split; [exact E1|]. rewrite L1, !slog_upd_log. cbn. now rewrite app_nil_r.
Qed.

Theorem dispatch_events cfg req already s :
  cfg_has_panic cfg = false ->
  route_request O (d_table cfg) req <> RPanic ->
  exists s', dispatch O cfg req already s = Done s' /\ slog s' = slog s ++ expected_events O cfg req.
Proof.
  intros Hpf Hnp. destruct (cfg_panic_free_parts cfg Hpf) as (Hc & Hwr & Hcp). unfold expected_events. rewrite dispatch_eq.
  pose proof (dispatch_body_routed cfg req already s (Hcp req)) as Hb.
  destruct (route_request O (d_table cfg) req) as [w r ps|e|]; [| |now contradiction Hnp]; rewrite Hb.
  - destruct (Hwr w r) as [Hfs Hh].
    edestruct (run_chain_events (route_filters cfg w r) (handler_target cfg r)) as (s1 & -> & L1);
      [exact Hfs|exact (fun s0 => handler_target_events cfg r s0 Hh)|].
    eexists. split; [reflexivity|]. now rewrite slog_close_comp, L1, slog_upd_attrs, slog_install_wanted.
  - edestruct (run_chain_events (d_cfilters cfg) (write_service_error e)) as (s1 & -> & L1);
      [exact Hc|exact (write_service_error_events e)|].
    eexists. split; [reflexivity|]. now rewrite slog_close_comp.
Qed.

Theorem serve_events cfg en req s :
  routed_request cfg req ->
  cfg_has_panic cfg = false ->
  route_request O (d_table cfg) req <> RPanic ->
  exists s', serve O cfg en req s = Done s' /\ slog s' = slog s ++ expected_events O cfg req.
Proof.
  intros Hrt Hpf Hnp. destruct en; [now apply dispatch_events|].
  rewrite serve_ServeHTTP_eq, !mux_target_routed by exact Hrt.
  destruct (d_encoding cfg); [|now apply dispatch_events].
  destruct (dispatch_events cfg req (has_comp (install_wanted false true req s)) (install_wanted false true req s) Hpf Hnp)
    as (s1 & -> & L1).
  eexists. split; [reflexivity|]. now rewrite slog_close_comp, L1, slog_install_wanted.
Qed.

(* C06, attributes: what a stage sets is what every later stage sees *)
Definition is_see (e : str) : bool := has_prefix e (L "see:").
Definition vlog (s : rstate) : list str := filter is_see (st_log s).

Lemma sees_app l1 l2 a : sees_of (l1 ++ l2) a = sees_of l1 a ++ sees_of l2 (attrs_after l1 a).
Proof.
  revert a. induction l1 as [|x l1 IH]; intros a; cbn; [reflexivity|].
  destruct x; cbn; rewrite ?IH; reflexivity.
Qed.
Lemma attrs_app l1 l2 a : attrs_after (l1 ++ l2) a = attrs_after l2 (attrs_after l1 a).
Proof. revert a. induction l1 as [|x l1 IH]; intros a; cbn; [reflexivity|]. destruct x; cbn; apply IH. Qed.

(* the attribute side of the state, in one piece so that what scripts do to it composes: the values ASee has logged
   so far, and the attribute map *)
Definition attr_view (s : rstate) : list str * list (str * str) := (vlog s, st_attrs s).
Definition attr_view_after (l : list action) (v : list str * list (str * str)) : list str * list (str * str) :=
  (fst v ++ sees_of l (snd v), attrs_after l (snd v)).

Lemma attr_view_after_app l1 l2 v : attr_view_after (l1 ++ l2) v = attr_view_after l2 (attr_view_after l1 v).
Proof. unfold attr_view_after. cbn. now rewrite sees_app, attrs_app, app_assoc. Qed.
Lemma attr_view_after_nil v : attr_view_after [] v = v.
Proof. destruct v. unfold attr_view_after. cbn. now rewrite app_nil_r. Qed.

Lemma attr_view_vlog s' l v a : attr_view s' = attr_view_after l (v, a) -> vlog s' = v ++ sees_of l a.
Proof. now intros [= -> _]. Qed.

Lemma attr_view_write_header s n : attr_view (write_header s n) = attr_view s.
Proof. now rewrite write_header_eq. Qed.
Lemma attr_view_write_body s b : attr_view (write_body s b) = attr_view s.
Proof. now rewrite write_body_eq. Qed.
Lemma attr_view_close_comp s : attr_view (close_comp s) = attr_view s.
Proof. now rewrite close_comp_eq. Qed.
Lemma attr_view_upd_attrs s a : attr_view (upd_attrs s a) = (vlog s, a).
Proof. reflexivity. Qed.
Lemma vlog_install_wanted already enabled req s : vlog (install_wanted already enabled req s) = vlog s.
Proof. now apply (inv_install_wanted (fun x => vlog x = vlog s)). Qed.
Lemma attr_view_upd_log s e : is_see e = false -> attr_view (upd_log s e) = attr_view s.
Proof.
  intros H. unfold attr_view, vlog. cbn [upd_log st_log st_attrs]. rewrite filter_app. cbn [filter]. now rewrite H, app_nil_r.
Qed.

Lemma attr_view_run_action a s : attr_view (state_of (run_action a s)) = attr_view_after [a] (attr_view s).
Proof.
  destruct a; cbn [run_action state_of]; rewrite ?attr_view_write_body, ?attr_view_write_header;
    try (symmetry; apply attr_view_after_nil);
    unfold attr_view, attr_view_after, vlog; cbn [fst snd sees_of attrs_after upd_attrs upd_log st_log st_attrs].
  - now rewrite app_nil_r.
  - now rewrite filter_app.
Qed.

Lemma attr_view_run_actions l s :
  panic_free l = true -> exists s', run_actions l s = Done s' /\ attr_view s' = attr_view_after l (attr_view s).
Proof.
  apply (run_actions_rel (fun l0 s0 s' => attr_view s' = attr_view_after l0 (attr_view s0)));
    [intros s0; now rewrite attr_view_after_nil|].
  intros a l0 s0 s' ->. now rewrite attr_view_run_action, <- (attr_view_after_app [a] l0).
Qed.

Lemma attr_view_enter f s : f_fresh f = false -> attr_view (enter f s) = attr_view s.
Proof. intros H. unfold enter. rewrite H. now destruct (f_wrap f). Qed.
Lemma attr_view_leave f s1 s2 : f_fresh f = false -> attr_view (leave f s1 s2) = attr_view s2.
Proof. intros H. unfold leave. rewrite H. now destruct (f_wrap f). Qed.
Lemma attr_view_finish f s :
  panic_free (f_post f) = true ->
  exists s', finish f s = Done s' /\ attr_view s' = attr_view_after (f_post f) (attr_view s).
Proof.
  intros H. unfold finish. destruct (attr_view_run_actions (f_post f) s H) as (s3 & -> & <-).
  eexists. split; [reflexivity|]. now apply attr_view_upd_log.
Qed.

(* the chain, for filters that pass on the wrapper they were given: one attribute map along the flattened
   sequence pre f1 .. pre fk, target, post fk .. post f1 *)
Lemma attr_view_run_chain fs : forall target tgt s,
  forallb fscript_panic_free fs = true -> existsb f_fresh fs = false ->
  (forall s0, exists s1, target s0 = Done s1 /\ attr_view s1 = attr_view_after tgt (attr_view s0)) ->
  exists s', run_chain fs target s = Done s' /\ attr_view s' = attr_view_after (flat_actions fs tgt) (attr_view s).
Proof.
  induction fs as [|f rest IH]; intros target tgt s Hpf Hfr Ht; [apply Ht|].
  cbn [forallb existsb] in Hpf, Hfr. apply andb_true_iff in Hpf as [Hf Hrest]. apply orb_false_iff in Hfr as [Hff Hfrest].
  apply fscript_panic_free_parts in Hf as [Hpre Hpost].
  rewrite run_chain_cons. cbn [flat_actions]. rewrite !attr_view_after_app.
  destruct (attr_view_run_actions (f_pre f) (upd_log s (L "pre:" ++ f_id f)) Hpre) as (s1 & -> & L1). cbn [bind].
  rewrite attr_view_upd_log in L1 by reflexivity. rewrite <- L1.
  destruct (f_pass f).
  - destruct (IH target tgt (enter f s1) Hrest Hfrest Ht) as (s2 & -> & L2). cbn [bind].
    rewrite <- (attr_view_enter f s1 Hff), <- L2, <- (attr_view_leave f s1 s2 Hff). now apply attr_view_finish.
  - rewrite attr_view_after_nil. now apply attr_view_finish.
Qed.

Theorem run_chain_sees fs : forall target tgt s,
  forallb fscript_panic_free fs = true -> existsb f_fresh fs = false ->
  (forall s0, exists s1, target s0 = Done s1 /\ vlog s1 = vlog s0 ++ sees_of tgt (st_attrs s0) /\
                         st_attrs s1 = attrs_after tgt (st_attrs s0)) ->
  exists s', run_chain fs target s = Done s' /\
             vlog s' = vlog s ++ sees_of (flat_actions fs tgt) (st_attrs s) /\
             st_attrs s' = attrs_after (flat_actions fs tgt) (st_attrs s).
Proof.
  intros target tgt s Hpf Hfr Ht. destruct (attr_view_run_chain fs target tgt s Hpf Hfr) as (s' & E & [= V A]); [|eauto].
  intros s0. destruct (Ht s0) as (s1 & E1 & V1 & A1). exists s1. split; [exact E1|].
  unfold attr_view, attr_view_after. cbn. now rewrite V1, A1.
Qed.

Lemma cfg_no_fresh_parts cfg :
  cfg_has_fresh cfg = false ->
  existsb f_fresh (d_cfilters cfg) = false /\ forall w r, existsb f_fresh (route_filters cfg w r) = false.
Proof.
  unfold cfg_has_fresh. intros H. apply orb_false_elim in H as [H Hr]. apply orb_false_elim in H as [Hc Hs].
  split; [exact Hc|]. intros w r.
  apply (route_filters_all (fun l => existsb f_fresh l = false));
    [reflexivity| |exact Hc|exact (existsb_false_In _ _ Hs)|exact (existsb_false_In _ _ Hr)].
  intros l1 l2 H1 H2. now apply existsb_app_false.
Qed.

Lemma write_service_error_attr_view e s0 :
  exists s1, write_service_error e s0 = Done s1 /\ attr_view s1 = attr_view_after [] (attr_view s0).
Proof.
  rewrite write_service_error_eq. destruct (attr_view_run_actions (error_script e) s0) as (s1 & E1 & L1); [now destruct e|].
  exists s1. split; [exact E1|]. rewrite L1. now destruct e.
Qed.

Lemma handler_target_attr_view cfg r s0 :
  panic_free (handler_of cfg r) = true ->
  exists s1, handler_target cfg r s0 = Done s1 /\ attr_view s1 = attr_view_after (handler_of cfg r) (attr_view s0).
Proof.
  intros Hh. unfold handler_target. edestruct (attr_view_run_actions (handler_of cfg r)) as (s1 & E1 & L1); [exact Hh|].
  exists s1. split; [exact E1|]. now rewrite L1, !attr_view_upd_log.
Qed.

(* a whole request: the values every stage sees are those of ONE attribute map threaded through
   container filters, service filters, route filters, the route function, and back *)
Theorem dispatch_sees cfg req already s :
  cfg_has_panic cfg = false -> cfg_has_fresh cfg = false ->
  route_request O (d_table cfg) req <> RPanic ->
  (match route_request O (d_table cfg) req with RError _ => st_attrs s = [] | _ => True end) ->
  exists s', dispatch O cfg req already s = Done s' /\ vlog s' = vlog s ++ expected_sees O cfg req.
Proof.
  intros Hpf Hnf Hnp Hat. destruct (cfg_panic_free_parts cfg Hpf) as (Hc & Hwr & Hcp).
  destruct (cfg_no_fresh_parts cfg Hnf) as [Hfc Hfwr]. unfold expected_sees. rewrite dispatch_eq.
  pose proof (dispatch_body_routed cfg req already s (Hcp req)) as Hb.
  destruct (route_request O (d_table cfg) req) as [w r ps|e|]; [| |now contradiction Hnp]; rewrite Hb.
  - destruct (Hwr w r) as [Hfs Hh].
    edestruct (attr_view_run_chain (route_filters cfg w r) (handler_target cfg r) (handler_of cfg r)) as (s1 & -> & L1);
      [exact Hfs|exact (Hfwr w r)|exact (fun s0 => handler_target_attr_view cfg r s0 Hh)|].
    eexists. split; [reflexivity|]. apply attr_view_vlog.
    now rewrite attr_view_close_comp, L1, attr_view_upd_attrs, vlog_install_wanted.
  - edestruct (attr_view_run_chain (d_cfilters cfg) (write_service_error e) []) as (s1 & -> & L1);
      [exact Hc|exact Hfc|exact (write_service_error_attr_view e)|].
    eexists. split; [reflexivity|]. apply attr_view_vlog. rewrite attr_view_close_comp, L1. unfold attr_view. now rewrite Hat.
Qed.

(* C07: the compressor discipline of a whole request, for both entry points and
   every outcome (normal, routing error, panic with and without recovery) *)
Definition clean (s : rstate) : Prop := st_acq s = st_rel s /\ st_comp s = None.

Lemma wants_compressed_hdr req s s' : st_hdr s = st_hdr s' -> wants_compressed req s = wants_compressed req s'.
Proof. unfold wants_compressed. now intros ->. Qed.

Lemma ledger_handle_plain cfg wf script req s :
  ledger (state_of (handle_plain cfg wf script req s)) =
  close_ledger (ledger (install_wanted (has_comp s) (d_encoding cfg) req s)).
Proof.
  rewrite handle_plain_eq, state_of_closing, ledger_close_comp. f_equal.
  apply book_ledger, book_run_chain. apply book_run_actions.
Qed.

(* is content encoding enabled where the mux's target may install a compressor, and where the entry point or what
   it calls may *)
Definition mux_enabled (cfg : dcfg) (req : request) : bool :=
  match assoc (rq_path req) (d_plain cfg) with Some _ => d_encoding cfg | None => dispatch_enabled O cfg req end.
Definition serve_enabled (cfg : dcfg) (en : entry) (req : request) : bool :=
  match en with EDispatch => dispatch_enabled O cfg req | EServeHTTP => d_encoding cfg || mux_enabled cfg req end.

(* for a mux that is told truly whether the writer it is handed compresses, as ServeHTTP tells it *)
Lemma ledger_mux_target cfg req s :
  ledger (state_of (mux_target O cfg req (has_comp s) s)) =
  close_ledger (ledger (install_wanted (has_comp s) (mux_enabled cfg req) req s)).
Proof.
  unfold mux_target, mux_enabled. destruct (assoc (rq_path req) (d_plain cfg)) as [[wf script]|];
    [apply ledger_handle_plain|apply ledger_dispatch].
Qed.

(* ServeHTTP decides before the mux: nothing is left to decide after it *)
Lemma install_wanted_decided enabled req s :
  let s1 := install_wanted false true req s in install_wanted (has_comp s1) enabled req s1 = s1.
Proof.
  intros s1. subst s1. unfold install_wanted. destruct (wants_compressed req s) eqn:Ew; [reflexivity|].
  rewrite Ew. now destruct (has_comp s), enabled.
Qed.

Theorem ledger_serve cfg en req s :
  st_comp s = None ->
  ledger (state_of (serve O cfg en req s)) =
  request_ledger (if serve_enabled cfg en req then wants_compressed req s else None) s.
Proof.
  intros Hc. assert (Hn : comp_shape s = None) by (unfold comp_shape; now rewrite Hc).
  destruct en; cbn [serve_enabled]; [unfold serve; rewrite ledger_dispatch; now apply close_ledger_install_wanted|].
  rewrite serve_ServeHTTP_eq. destruct (d_encoding cfg); cbn [orb].
  - rewrite state_of_closing, ledger_close_comp, ledger_mux_target, install_wanted_decided.
    now rewrite (close_ledger_install_wanted true), close_ledger_request_ledger.
  - pose proof (ledger_mux_target cfg req s) as H. unfold has_comp in H. rewrite Hc in H. rewrite H.
    now apply close_ledger_install_wanted.
Qed.

Lemma serve_enabled_true cfg en req :
  serve_enabled cfg en req = true ->
  match en with
  | EDispatch => exists w r0, select_route O (d_table cfg) req = inl (w, r0) /\ enabled_for cfg r0 = true
  | EServeHTTP => d_encoding cfg = true \/
                  exists w r0, select_route O (d_table cfg) req = inl (w, r0) /\ enabled_for cfg r0 = true
  end.
Proof.
  destruct en; cbn [serve_enabled]; [apply dispatch_enabled_true|].
  unfold mux_enabled. destruct (d_encoding cfg); [auto|]. cbn [orb].
  destruct (assoc (rq_path req) (d_plain cfg)); [discriminate|]. right. now apply dispatch_enabled_true.
Qed.

Lemma serve_balanced cfg en req s : clean s -> balanced (state_of (serve O cfg en req s)).
Proof.
  intros [Hb Hc]. exact (proj1 (request_ledger_discipline _ _ _ Hb (ledger_serve cfg en req s Hc))).
Qed.

(* C07_no_bypass: while a compressor is installed, what reached the underlying writer directly does not change *)
Definition raw_guard (s : rstate) : option (list str) :=
  match st_comp s with Some _ => Some (st_raw s) | None => None end.

Lemma guard_write_header s n : raw_guard (write_header s n) = raw_guard s.
Proof. now rewrite write_header_eq. Qed.
Lemma guard_write_body s b : raw_guard (write_body s b) = raw_guard s.
Proof. rewrite write_body_eq. unfold raw_guard. cbn. now destruct (st_comp s) as [[[c ch] [|]]|]. Qed.
Lemma guard_run_action a s : raw_guard (state_of (run_action a s)) = raw_guard s.
Proof.
  destruct a; cbn; auto using guard_write_header, guard_write_body.
  now rewrite guard_write_body, guard_write_header.
Qed.
Lemma guard_run_actions l s : raw_guard (state_of (run_actions l s)) = raw_guard s.
Proof.
  apply (inv_run_actions (fun x => raw_guard x = raw_guard s)); [|reflexivity]. intros a s0 _ <-. apply guard_run_action.
Qed.
(* C10_once: a status that was written stays *)
Lemma status_write_header s n m : st_status s = Some m -> st_status (write_header s n) = Some m.
Proof. rewrite write_header_eq. unfold first_status. cbn. now intros ->. Qed.
Lemma status_write_body s b m : st_status s = Some m -> st_status (write_body s b) = Some m.
Proof. rewrite write_body_eq. unfold first_status. cbn. intros ->. now destruct (st_comp s) as [[[c ch] [|]]|]. Qed.
Lemma status_run_action a s m : st_status s = Some m -> st_status (state_of (run_action a s)) = Some m.
Proof. destruct a; cbn; auto using status_write_header, status_write_body. Qed.
Lemma status_run_actions l s m : st_status s = Some m -> st_status (state_of (run_actions l s)) = Some m.
Proof. apply (inv_run_actions (fun x => st_status x = Some m)). intros a s0 _. apply status_run_action. Qed.
Lemma status_close_comp s m : st_status s = Some m -> st_status (close_comp s) = Some m.
Proof. rewrite close_comp_eq. unfold first_status. cbn. intros ->. now destruct (st_comp s) as [[[c ch] [|]]|]. Qed.

End Serve.

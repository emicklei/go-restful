(* WrapperProofs.v — C06: the response wrapper a filter passes on is in force exactly for what follows in the chain: when the chain
   returns to the filter, the filter's own wrapper (its stack of upper-casing writers) is back in place.  Here are the steps —
   scripts and [finish] keep the stack, [leave] undoes [enter] —; the induction over the chain is under C06_wrapper_scope. *)
From Model Require Import Str Dispatch.
From Proofs Require Import DispatchProofs.

Lemma upper_run_action a s : st_upper (state_of (run_action a s)) = st_upper s.
Proof. destruct a; cbn [run_action state_of]; now rewrite ?write_body_eq, ?write_header_eq. Qed.

Lemma upper_run_actions l s : st_upper (state_of (run_actions l s)) = st_upper s.
Proof.
  apply (inv_run_actions (fun x => st_upper x = st_upper s)); [|reflexivity]. intros a s0 _ <-. apply upper_run_action.
Qed.

Lemma upper_finish f s s' : finish f s = Done s' -> st_upper s' = st_upper s.
Proof.
  unfold finish. pose proof (upper_run_actions (f_post f) s) as H.
  destruct (run_actions (f_post f) s); cbn in *; [|discriminate]. now intros [= <-].
Qed.

(* what a filter is back in: its own wrapper if it passed on a new one, else what the rest of the chain left *)
Lemma upper_leave f s1 s2 :
  st_upper s2 = st_upper (enter f s1) -> st_upper (leave f s1 s2) = st_upper s1.
Proof. unfold leave, enter. destruct (f_fresh f), (f_wrap f); cbn; auto. Qed.

(* inside a wrapping filter the route function writes through one more upper-casing writer *)
Lemma wrapping_filter_wraps f target s :
  f_wrap f = true -> f_pass f = true -> f_pre f = [] -> f_fresh f = false ->
  run_chain [f] target s =
    bind (target (set_wrapper (upd_log s (L "pre:" ++ f_id f)) true (S (st_upper s))))
         (fun s2 => bind (run_actions (f_post f) (set_wrapper s2 (st_pretty s) (st_upper s)))
                         (fun s3 => Done (upd_log s3 (L "post:" ++ f_id f)))).
Proof. intros Hw Hp Hpre Hf. cbn [run_chain]. rewrite Hw, Hp, Hpre, Hf. reflexivity. Qed.

(* PoolProofs.v — C13 on the transition system of Pool.v: clients whose programs contain no blocking send, checked or
   not, are never blocked; idle and held objects are, in every reachable state, distinct identities among those created
   so far. *)
From Model Require Import Pool.
From Coq Require Import List Arith Bool Lia.
Import ListNotations.

Lemma nth_error_set_nth {A} (l : list A) i j x :
  nth_error (set_nth i x l) j = if Nat.eqb i j then (match nth_error l i with Some _ => Some x | None => None end) else nth_error l j.
Proof.
  revert i j. induction l as [|y l IH]; intros i j; cbn.
  - destruct (Nat.eqb i j); destruct i, j; reflexivity.
  - destruct i, j; cbn; try reflexivity. apply IH.
Qed.

Lemma length_set_nth {A} (l : list A) i x : length (set_nth i x l) = length l.
Proof. revert i. induction l as [|y l IH]; intros [|i]; cbn; auto. Qed.

Lemma set_nth_app {A} (a b : list A) c x : set_nth (length a) x (a ++ c :: b) = a ++ x :: b.
Proof. induction a as [|y a IH]; cbn; [reflexivity|now rewrite IH]. Qed.

Lemma pstep_at_spec s i s' :
  pstep_at s i = Some s' ->
  exists a c b c', ps_clients s = a ++ c :: b /\ ps_clients s' = a ++ c' :: b /\
    client_step (ps_cap s) (ps_chan s) (ps_next s) c = Some (ps_chan s', ps_next s', c').
Proof.
  unfold pstep_at. destruct (nth_error (ps_clients s) i) as [c|] eqn:E; [|discriminate].
  apply nth_error_split in E as (a & b & E & <-).
  destruct (client_step _ _ _ c) as [[[ch next] c']|] eqn:Es; [|discriminate]. intros [= <-].
  exists a, c, b, c'. cbn. rewrite E, set_nth_app. auto.
Qed.

Lemma prun_invariant (P : pstate -> Prop) :
  (forall s i s', P s -> pstep_at s i = Some s' -> P s') -> forall sched s, P s -> P (prun s sched).
Proof.
  intros Hstep. induction sched as [|i rest IH]; intros s H; cbn; [exact H|].
  destruct (pstep_at s i) eqn:E; eauto.
Qed.

Lemma nb_client_step cap ch next c :
  nb_prog (c_prog c) = true ->
  match client_step cap ch next c with Some (_, _, c') => nb_prog (c_prog c') = true | None => c_prog c = [] end.
Proof.
  unfold nb_prog, client_step. destruct (c_prog c) as [|p k]; [reflexivity|]. cbn [forallb].
  intros [Hp Hk]%andb_true_iff.
  destruct p; try discriminate Hp; destruct ch; try destruct (Nat.ltb (length _) cap); cbn [c_prog]; try exact Hk;
    cbn in Hp; now rewrite forallb_app, Hp.
Qed.

Definition all_nb (s : pstate) : Prop := Forall (fun c => nb_prog (c_prog c) = true) (ps_clients s).

Lemma all_nb_step s i s' : all_nb s -> pstep_at s i = Some s' -> all_nb s'.
Proof.
  unfold all_nb. intros H (a & c & b & c' & E & -> & Es)%pstep_at_spec. rewrite E in H.
  apply Forall_app in H as [Ha Hb]. apply Forall_app. split; [exact Ha|].
  inversion Hb as [|? ? Hc Hb']. constructor; [|exact Hb'].
  pose proof (nb_client_step (ps_cap s) (ps_chan s) (ps_next s) c Hc) as N. now rewrite Es in N.
Qed.

Lemma all_nb_init cap progs : Forall (fun p => nb_prog p = true) progs -> all_nb (pinit cap progs).
Proof. unfold all_nb, pinit. cbn. intros H. rewrite Forall_map. exact H. Qed.

Lemma all_nb_not_blocked s i : all_nb s -> blocked s i = false.
Proof.
  intros Hall. unfold blocked, pstep_at, unfinished. destruct (nth_error (ps_clients s) i) as [c|] eqn:E; [|reflexivity].
  pose proof (nb_client_step (ps_cap s) (ps_chan s) (ps_next s) c) as N.
  destruct (client_step _ _ _ c) as [[[ch next] c']|]; [apply andb_false_r|].
  rewrite N; [reflexivity|]. unfold all_nb in Hall. rewrite Forall_forall in Hall. eauto using nth_error_In.
Qed.

Theorem nonblocking cap progs sched i :
  Forall (fun p => nb_prog p = true) progs -> blocked (prun (pinit cap progs) sched) i = false.
Proof. intros H. apply all_nb_not_blocked, (prun_invariant all_nb all_nb_step), all_nb_init, H. Qed.

Lemma rounds_nb acq rel n : nb_prog acq = true -> nb_prog rel = true -> nb_prog (rounds_prog acq rel n) = true.
Proof. intros Ha Hr. induction n; cbn; [reflexivity|]. unfold nb_prog in *. now rewrite !forallb_app, Ha, Hr, IHn. Qed.

Definition held_of (c : client) : list nat := match c_held c with Some x => [x] | None => [] end.
Local Notation cnt := (count_occ Nat.eq_dec).

(* the idle and the held objects are among those created so far, each at most once; the rest were dropped *)
Definition excl (s : pstate) : Prop :=
  forall x, cnt (ps_chan s ++ held_list s) x <= cnt (seq 0 (ps_next s)) x.

Lemma send_held c ch : match c_held c with Some x => ch ++ [x] | None => ch end = ch ++ held_of c.
Proof. unfold held_of. destruct (c_held c); [reflexivity|now rewrite app_nil_r]. Qed.

Lemma client_step_excl cap ch next c x :
  match client_step cap ch next c with
  | Some (ch', next', c') => cnt (ch' ++ held_of c') x + cnt (seq 0 next) x <= cnt (ch ++ held_of c) x + cnt (seq 0 next') x
  | None => True
  end.
Proof.
  (* a receive moves an object from the channel to the client, "new" takes the identity [next], a send moves the held
     object to the channel; every other step keeps or forgets what the client holds *)
  unfold client_step. rewrite send_held. destruct (c_prog c) as [|[] k]; try exact I.
  1,5: destruct ch as [|y ch]; try change (y :: ch) with ([y] ++ ch).
  all: try destruct (Nat.ltb _ _); try exact I; unfold held_of at 1; cbn [c_held]; fold (held_of c);
    rewrite ?seq_S, ?count_occ_app, ?count_occ_nil; cbn [plus]; lia.
Qed.

Lemma excl_step s i s' : excl s -> pstep_at s i = Some s' -> excl s'.
Proof.
  unfold excl, held_list. intros H (a & c & b & c' & E & E' & Es)%pstep_at_spec x.
  specialize (H x). pose proof (client_step_excl (ps_cap s) (ps_chan s) (ps_next s) c x) as Hc. rewrite Es in Hc.
  rewrite E in H. rewrite E'. rewrite flat_map_app in *. cbn [flat_map] in *. fold (held_of c) in H. fold (held_of c').
  rewrite !count_occ_app in *. lia.
Qed.

Lemma excl_init cap progs : excl (pinit cap progs).
Proof.
  intros x. unfold pinit, held_list. cbn [ps_chan ps_next ps_clients].
  replace (flat_map _ _) with (@nil nat); [now rewrite app_nil_r|].
  induction progs; [reflexivity|assumption].
Qed.

Definition acq_prog : list pstep := [PTryRecvElseNew].
Definition rel_check_then_send : list pstep := [PIfLenLtCap [PSend]].

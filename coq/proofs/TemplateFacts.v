(* TemplateFacts.v — custom verbs and tokenisation *)
From Model Require Import Str Template.
From Proofs Require Import StrFacts.
From Coq Require Import Lia.

Lemma span_letters_spec s :
  let '(a, b) := span_letters s in
  s = a ++ b /\ forallb is_letter a = true /\
  match b with [] => True | c :: _ => is_letter c = false end.
Proof.
  induction s as [|c s IH]; cbn; [auto|].
  destruct (is_letter c) eqn:E.
  - destruct (span_letters s) as [a b]. destruct IH as (-> & H2 & H3). cbn. rewrite E, H2. auto.
  - cbn. auto.
Qed.

Lemma span_letters_app a c b :
  forallb is_letter a = true -> is_letter c = false -> span_letters (a ++ c :: b) = (a, c :: b).
Proof.
  induction a as [|x a IH]; cbn; intros Ha Hc.
  - now rewrite Hc.
  - apply andb_true_iff in Ha as [H1 H2]. now rewrite H1, IH.
Qed.

Lemma forallb_rev {A} (p : A -> bool) l : forallb p (rev l) = forallb p l.
Proof.
  induction l as [|x l IH]; cbn; [reflexivity|]. rewrite forallb_app, IH. cbn.
  destruct (p x), (forallb p l); reflexivity.
Qed.

Lemma verb_split_inv s b v :
  verb_split s = Some (b, v) -> s = b ++ colon :: v /\ v <> [] /\ forallb is_letter v = true.
Proof.
  unfold verb_split. pose proof (span_letters_spec (rev s)) as H.
  destruct (span_letters (rev s)) as [ls rest]. destruct H as (H1 & H2 & H3).
  destruct ls as [|l0 ls]; [discriminate|]. destruct rest as [|c rest]; [discriminate|].
  destruct (Ascii.eqb c colon) eqn:Ec; [|discriminate]. apply Ascii.eqb_eq in Ec. subst c.
  intros [= <- <-]. apply (f_equal (@rev _)) in H1. rewrite rev_involutive in H1.
  rewrite H1. rewrite rev_app_distr. cbn [rev]. rewrite <- !app_assoc. cbn.
  split; [reflexivity|]. split.
  - intros E. apply (f_equal (@List.length _)) in E. rewrite app_length in E. cbn in E. lia.
  - change (rev ls ++ [l0]) with (rev (l0 :: ls)). now rewrite forallb_rev.
Qed.

Lemma verb_split_app b v :
  v <> [] -> forallb is_letter v = true -> verb_split (b ++ colon :: v) = Some (b, v).
Proof.
  intros Hv Hl. unfold verb_split. rewrite rev_app_distr. cbn [rev]. rewrite <- app_assoc. cbn [app].
  rewrite span_letters_app; [| now rewrite forallb_rev | reflexivity].
  destruct (rev v) as [|r0 rv] eqn:Er.
  - apply (f_equal (@rev _)) in Er. rewrite rev_involutive in Er. cbn in Er. contradiction.
  - rewrite Ascii.eqb_refl. rewrite <- Er, !rev_involutive. reflexivity.
Qed.

Lemma has_custom_verb_true s : has_custom_verb s = true <-> exists b v, verb_split s = Some (b, v).
Proof.
  unfold has_custom_verb. destruct (verb_split s) as [[b v]|].
  - split; [intros _; now exists b, v|reflexivity].
  - split; [discriminate|]. intros (b & v & H). discriminate H.
Qed.

Lemma remove_custom_verb_suffix qt v :
  v <> [] -> forallb is_letter v = true -> has_suffix qt (colon :: v) = true ->
  remove_custom_verb qt = firstn (List.length qt - List.length v - 1) qt.
Proof.
  intros Hv Hl Hs. apply has_suffix_spec in Hs as [t ->].
  unfold remove_custom_verb. rewrite verb_split_app by assumption.
  rewrite app_length. cbn [List.length].
  replace (List.length t + S (List.length v) - List.length v - 1) with (List.length t) by lia.
  now rewrite firstn_app_l.
Qed.

Lemma existsb_rev {A} (p : A -> bool) l : existsb p (rev l) = existsb p l.
Proof.
  induction l as [|x l IH]; cbn; [reflexivity|]. rewrite existsb_app, IH. cbn.
  destruct (p x), (existsb p l); reflexivity.
Qed.

Lemma not_slash_path p :
  existsb (fun x => negb (Ascii.eqb x slash)) p = true -> str_eqb p [slash] = false.
Proof.
  intros H. apply str_eqb_neq. intros ->. cbn in H. discriminate.
Qed.

Lemma tokenize_trailing_slash p :
  existsb (fun x => negb (Ascii.eqb x slash)) p = true ->
  tokenize (p ++ [slash]) = tokenize p.
Proof.
  intros H. unfold tokenize. rewrite (not_slash_path p H).
  rewrite not_slash_path by (rewrite existsb_app, H; reflexivity).
  now rewrite trim_app_sep.
Qed.

(* OptionsProofs.v — C17: a 405 lists exactly the methods of the routes detectRoute had left, and whether the answer is
   404 / 405 does not depend on the request's method beyond that list; both routers through [candidates]. *)
From Model Require Import Str Http Table DetectRoute Router.
From Spec Require Import RouteSpec.
From Proofs Require Import StrFacts RouterProofs.

Definition with_method (req : request) (m : str) : request :=
  {| rq_method := m; rq_path := rq_path req; rq_headers := rq_headers req; rq_clen := rq_clen req |}.

Definition is_404_405 (d : route + rerr) : bool :=
  match d with inr E404 => true | inr (E405 _) => true | _ => false end.

Definition conds_holding (l : list route) : list route := filter conds_hold l.
Definition having_method (m : str) (l : list route) : list route := filter (fun r => str_eqb m (r_method r)) l.

(* 404 or 405 exactly when no route whose conditions hold has the method, and a 405 lists the methods of those routes *)
Lemma detect_route_404_405 l req :
  is_404_405 (detect_route l req) = match having_method (rq_method req) (conds_holding l) with [] => true | _ => false end /\
  forall allow, detect_route l req = inr (E405 allow) -> allow = dedup (map r_method (conds_holding l)) [].
Proof.
  rewrite detect_route_eq. cbv zeta. unfold conds_holding, having_method.
  destruct (filter conds_hold l) as [|a0 c0]; [split; [reflexivity|discriminate]|].
  destruct (filter _ (a0 :: c0)) as [|a1 c1]; [split; [reflexivity|now intros allow [= <-]]|].
  destruct (filter _ (filter _ (a1 :: c1))); [destruct (_ || _)|]; (split; [reflexivity|discriminate]).
Qed.

Lemma having_method_nonempty m c : In m (map r_method c) <-> having_method m c <> [].
Proof.
  unfold having_method. rewrite in_map_iff. split.
  - intros (r & <- & Hr) Hn. apply (in_nil (a := r)). rewrite <- Hn. apply filter_In. now rewrite str_eqb_refl.
  - destruct (filter _ c) as [|r rest] eqn:Ef; [easy|]. exists r.
    assert (Hr : In r (r :: rest)) by now left. rewrite <- Ef in Hr. apply filter_In in Hr as [Hr ->%str_eqb_eq]. auto.
Qed.

(* detectRoute: the Allow list of a 405 is exactly the set of methods that are not answered 404/405 *)
Lemma detect_route_allow_truth l req allow :
  detect_route l req = inr (E405 allow) ->
  forall m, In m allow <-> is_404_405 (detect_route l (with_method req m)) = false.
Proof.
  intros H m. rewrite (proj2 (detect_route_404_405 l req) _ H), dedup_In, having_method_nonempty, (proj1 (detect_route_404_405 _ _)).
  cbn [rq_method with_method]. destruct (having_method m (conds_holding l)).
  - split; [now intros [[] _]|discriminate].
  - split; [reflexivity|]. split; [discriminate|tauto].
Qed.

Section C17.
Variable O : oracles.

Definition status_class (x : routed) : bool :=   (* answered 404 or 405 *)
  match x with RError E404 => true | RError (E405 _) => true | _ => false end.

(* selection of service and candidates does not look at the method *)
Lemma status_class_candidates t req :
  status_class (route_request O t req) =
  match candidates O t (rq_path req) with Some (_, l) => is_404_405 (detect_route l req) | None => true end.
Proof.
  unfold route_request. rewrite select_route_candidates. destruct (candidates O t (rq_path req)) as [[w l]|]; [|reflexivity].
  destruct (detect_route l req) as [r|e]; [|reflexivity]. now destruct (extract_parameters O t w r (rq_path req)).
Qed.

Lemma route_request_405 t req allow :
  route_request O t req = RError (E405 allow) ->
  exists w l, candidates O t (rq_path req) = Some (w, l) /\ detect_route l req = inr (E405 allow).
Proof.
  unfold route_request. rewrite select_route_candidates. destruct (candidates O t (rq_path req)) as [[w l]|]; [|discriminate].
  destruct (detect_route l req) as [r|e] eqn:Ed; [destruct (extract_parameters O t w r (rq_path req)); discriminate|].
  intros [= ->]. exists w, l. split; [reflexivity|exact Ed].
Qed.

End C17.

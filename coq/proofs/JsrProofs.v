(* JsrProofs.v — RouterJSR311: the segment-wise matcher of the compiled template
   expressions decides the structural admission of RouteSpec and captures its bindings
   (C01, C04 and the no-panic half of C02 for the second router; the cascade of C02 is in JsrOutcomeProofs). *)
From Model Require Import Str Http Template Table Curly DetectRoute Jsr311 Router.
From Spec Require Import RouteSpec.
From Proofs Require Import StrFacts SortFacts RouterProofs.

(* The theorems about RouterJSR311 have the measured premise that path_expression.go reads a template as the
   specification does (jsr_tokens_agree, jsr_names_agree).  Here it is token by token: the expression token is the one the
   structural token stands for ([tok_rel], from tokens_agree), and its VarNames entry is the structural name ([tok_rel2],
   with names_agree) *)
Definition tok_rel (e : etok) (v : vtok) : Prop := conv (v_tk v) = Some e.

Definition tok_rel2 (en : etok * option str) (v : vtok) : Prop :=
  conv (v_tk v) = Some (fst en) /\ snd en = tk_name (v_tk v).
Definition names_of (ets : list (etok * option str)) : list str :=
  flat_map (fun e => match snd e with Some n => [n] | None => [] end) ets.

Lemma etok_eqb_eq a b : etok_eqb a b = true -> a = b.
Proof. destruct a, b; cbn; try discriminate; try reflexivity; intros H; apply str_eqb_eq in H; now subst. Qed.

Lemma opt_str_eqb_eq a b : opt_str_eqb a b = true -> a = b.
Proof. destruct a, b; cbn; try discriminate; try reflexivity. intros H. apply str_eqb_eq in H. now subst. Qed.

Lemma Forall2_map_In {A B C} (R : B -> C -> Prop) (f : A -> B) (g : A -> C) l :
  (forall a, In a l -> R (f a) (g a)) -> Forall2 R (map f l) (map g l).
Proof. induction l as [|a l IH]; cbn; intros H; constructor; auto. Qed.

Lemma tok_agree s :
  match conv (jsr_parse_tk s) with Some e => etok_eqb (fst (etok_of s)) e | None => false end = true ->
  tok_rel (fst (etok_of s)) (jsr_parse_tok s).
Proof.
  unfold tok_rel. cbn [v_tk jsr_parse_tok]. destruct (conv (jsr_parse_tk s)) as [e|]; [|discriminate].
  now intros ->%etok_eqb_eq.
Qed.

Lemma tokens_agree_rel template :
  tokens_agree template = true -> Forall2 tok_rel (pe_toks (path_expression template)) (jsr_tpl template).
Proof.
  unfold tokens_agree. rewrite forallb_forall. intros H. cbn [pe_toks path_expression]. rewrite map_map.
  apply Forall2_map_In. intros s Hs. apply tok_agree, H, Hs.
Qed.

Lemma agree_rel2 template :
  tokens_agree template = true -> names_agree template = true ->
  Forall2 tok_rel2 (map etok_of (filter (fun t => negb (str_eqb t [])) (tokenize template))) (jsr_tpl template).
Proof.
  unfold tokens_agree, names_agree. rewrite !forallb_forall. intros H1 H2.
  apply Forall2_map_In. intros s Hs. split; [apply tok_agree, H1, Hs|apply opt_str_eqb_eq, H2, Hs].
Qed.

Lemma rel2_rel ets vtoks : Forall2 tok_rel2 ets vtoks -> Forall2 tok_rel (map fst ets) vtoks.
Proof. induction 1 as [|e v l l' [H _] Hl IH]; cbn; constructor; auto. Qed.

Lemma rel2_names ets vtoks : Forall2 tok_rel2 ets vtoks -> names_of ets = tpl_names vtoks.
Proof.
  induction 1 as [|en v l l' [_ Hn] _ IH]; [reflexivity|]. unfold names_of, tpl_names in *. cbn [flat_map].
  rewrite IH, Hn. now destruct (v_tk v).
Qed.

Lemma pe_names_map template :
  pe_names (path_expression template) = names_of (map etok_of (filter (fun t => negb (str_eqb t [])) (tokenize template))).
Proof. reflexivity. Qed.

(* a path as the matcher walks it: "" or "/" seg "/" seg ...; the spec reads the segments *)
Definition rooted (p : str) : bool := match p with [] => true | c :: _ => Ascii.eqb c slash end.
Definition segs_of (p : str) : list str := match p with [] => [] | _ :: p1 => split slash p1 end.

Lemma span_seg_split p1 seg rest :
  span_seg p1 = (seg, rest) -> p1 = seg ++ rest /\ rooted rest = true /\ split slash p1 = seg :: segs_of rest.
Proof.
  revert seg rest. induction p1 as [|c p IH]; intros seg rest H; cbn in H.
  - injection H as <- <-. now repeat split.
  - destruct (Ascii.eqb c slash) eqn:E.
    + injection H as <- <-. cbn [rooted segs_of split]. now rewrite E.
    + destruct (span_seg p) as [a b]. injection H as <- <-. cbn [split]. rewrite E.
      destruct (IH a b eq_refl) as (-> & Hr & ->). now repeat split.
Qed.

(* one turn of the matcher on a segment: the tail wildcard takes all that is left instead; every other token accepts the
   segment or not ([seg_ok] below), and every token but a literal is a capture group of the compiled expression *)
Definition is_eall (e : etok) : bool := match e with EAll => true | _ => false end.
Definition cap (e : etok) (seg : str) : list str := match e with ELit _ => [] | _ => [seg] end.

(* each name of a token (there is at most one) is bound to its segment; the tail wildcard's to all that is left *)
Lemma jsr_bindings_cons v tpl s segs :
  jsr_bindings (v :: tpl) (s :: segs) =
  if is_tail v then map (fun n => (n, join [slash] (s :: segs))) (tk_names (v_tk v))
  else map (fun n => (n, s)) (tk_names (v_tk v)) ++ jsr_bindings tpl segs.
Proof. unfold is_tail. cbn [jsr_bindings]. destruct (v_tk v); reflexivity. Qed.

(* under the names of its structural token, a token's capture is that token's binding *)
Lemma tok_rel_bind e v seg names caps :
  tok_rel e v ->
  zip_params (tk_names (v_tk v) ++ names) (cap e seg ++ caps) = map (fun n => (n, seg)) (tk_names (v_tk v)) ++ zip_params names caps.
Proof. unfold tok_rel. destruct (v_tk v); cbn; intros H; try discriminate H; now injection H as <-. Qed.

Section Jsr.
Variable O : oracles.

Definition seg_ok (e : etok) (seg : str) : bool :=
  match e with ELit s => str_eqb seg s | EVar => negb (str_eqb seg []) | ERx re => o_rxfull O re seg | EAll => false end.

Lemma jsr_match_nil p : jsr_match O [] p = if rooted p then Some ([], p) else None.
Proof. now destruct p. Qed.

Lemma jsr_match_cons e toks p :
  jsr_match O (e :: toks) p =
  match p with
  | [] => None
  | c :: p1 =>
    if negb (Ascii.eqb c slash) then None
    else if is_eall e then match toks with [] => Some (cap e p1, []) | _ => None end
    else let '(seg, rest) := span_seg p1 in
         if seg_ok e seg
         then match jsr_match O toks rest with Some (caps, fin) => Some (cap e seg ++ caps, fin) | None => None end
         else None
  end.
Proof.
  destruct p as [|c p1]; [reflexivity|]. cbn [jsr_match]. destruct (negb (Ascii.eqb c slash)); [reflexivity|].
  destruct e; cbn [is_eall seg_ok cap app]; [| | |reflexivity]; destruct (span_seg p1) as [seg rest]; apply if_negb.
Qed.

Lemma jsr_match_rooted toks p caps fin : jsr_match O toks p = Some (caps, fin) -> rooted p = true.
Proof.
  destruct p as [|c p1]; [reflexivity|]. cbn [rooted].
  destruct toks; cbn [jsr_match]; (destruct (Ascii.eqb c slash); [reflexivity|discriminate]).
Qed.

(* two agreeing tokens make the same test on a segment *)
Lemma tok_rel_spec e v seg :
  tok_rel e v -> is_tail v = is_eall e /\ tk_admits_jsr O (v_tk v) seg = seg_ok e seg.
Proof. unfold tok_rel, is_tail. destruct (v_tk v); cbn; intros H; try discriminate H; injection H as <-; now split. Qed.

(* the structural admission on a path as the matcher walks it *)
Definition admits_at (tpl : list vtok) (p : str) : bool := rooted p && jsr_admits_segs O tpl (segs_of p).

Lemma admits_at_cons v tpl p :
  admits_at (v :: tpl) p =
  match p with
  | [] => false
  | c :: p1 =>
    Ascii.eqb c slash &&
    let '(seg, rest) := span_seg p1 in
    if is_tail v then match tpl with [] => true | _ => false end
    else tk_admits_jsr O (v_tk v) seg && admits_at tpl rest
  end.
Proof.
  destruct p as [|c p1]; [reflexivity|]. unfold admits_at. cbn [rooted segs_of].
  destruct (span_seg p1) as [seg rest] eqn:Es. apply span_seg_split in Es as (_ & -> & ->). reflexivity.
Qed.

(* what a match means: the expression's tokens consume the template's, their captures under the template's names
   are its bindings, and what is left admits and binds the rest; no match, no admission *)
Lemma jsr_match_spec toks vtoks tpl : Forall2 tok_rel toks vtoks -> forall p,
  match jsr_match O toks p with
  | Some (caps, fin) =>
      admits_at (vtoks ++ tpl) p = admits_at tpl fin /\
      jsr_bindings (vtoks ++ tpl) (segs_of p) = zip_params (tpl_names vtoks) caps ++ jsr_bindings tpl (segs_of fin)
  | None => admits_at (vtoks ++ tpl) p = false
  end.
Proof.
  induction 1 as [|e v toks vt Hv Hrest IH]; intros p; cbn [app].
  - rewrite jsr_match_nil. unfold admits_at. destruct (rooted p) eqn:E; [now rewrite E|reflexivity].
  - rewrite jsr_match_cons, admits_at_cons. destruct p as [|c p1]; [reflexivity|].
    destruct (Ascii.eqb c slash); [|reflexivity]. cbn [negb andb segs_of].
    change (tpl_names (v :: vt)) with (tk_names (v_tk v) ++ tpl_names vt).
    destruct (span_seg p1) as [seg rest] eqn:Es. apply span_seg_split in Es as (_ & _ & Es). rewrite Es, jsr_bindings_cons.
    destruct (tok_rel_spec e v seg Hv) as [-> ->]. destruct (is_eall e).
    + (* the tail wildcard must be the last token of all; it captures what is left, which is the remaining segments joined *)
      destruct Hrest; [|reflexivity]. split; [now destruct tpl|]. rewrite <- Es, join_split.
      rewrite <- (app_nil_r (cap e p1)), (tok_rel_bind e v p1 _ _ Hv). cbn [zip_params segs_of].
      destruct tpl; now rewrite !app_nil_r.
    + destruct (seg_ok e seg); [|reflexivity]. specialize (IH rest).
      destruct (jsr_match O toks rest) as [[caps fin]|]; [|exact IH]. destruct IH as [-> ->].
      now rewrite (tok_rel_bind e v seg _ _ Hv), <- app_assoc.
Qed.

(* the specification's two entry points, read on the path as the matcher walks it *)
Lemma final_ok_admits fin : final_ok fin = admits_at [] fin.
Proof.
  destruct fin as [|c l]; [reflexivity|]. unfold final_ok, admits_at. cbn [str_eqb rooted segs_of orb].
  cbn [andb jsr_admits_segs].
  destruct l as [|d l]; [reflexivity|].
  destruct (split slash (d :: l)) as [|[|] [|]] eqn:E; try reflexivity.
  - now contradiction (split_not_nil slash (d :: l)).
  - now apply split_single_empty in E.
Qed.

Lemma jsr_admits_path_at w r p :
  jsr_admits_path O w r p = admits_at (jsr_tpl (s_root w) ++ jsr_tpl (r_rel r)) p.
Proof.
  unfold jsr_admits_path, admits_at. destruct p as [|c p]; cbn [rooted segs_of path_segs andb].
  - now destruct (jsr_tpl (s_root w)), (jsr_tpl (r_rel r)).
  - now destruct (Ascii.eqb c slash).
Qed.

Lemma jsr_route_bindings_at w r p :
  rooted p = true -> jsr_route_bindings w r p = jsr_bindings (jsr_tpl (s_root w) ++ jsr_tpl (r_rel r)) (segs_of p).
Proof.
  unfold jsr_route_bindings, path_segs. destruct p as [|c p]; cbn [rooted segs_of]; [|now intros ->].
  now destruct (jsr_tpl (s_root w) ++ jsr_tpl (r_rel r)).
Qed.

(* root expression, then route expression on the root's final group: the route is a candidate
   exactly when the path is admitted by root + route template *)
Lemma jsr_route_iff w r path caps fin :
  tokens_agree (s_root w) = true -> tokens_agree (r_rel r) = true ->
  jsr_match O (pe_toks (path_expression (s_root w))) path = Some (caps, fin) ->
  (match jsr_match O (pe_toks (path_expression (r_rel r))) fin with
   | Some (_, f2) => final_ok f2 | None => false end) = jsr_admits_path O w r path.
Proof.
  intros Hw Hr Hm1. rewrite jsr_admits_path_at.
  pose proof (jsr_match_spec _ _ (jsr_tpl (r_rel r)) (tokens_agree_rel _ Hw) path) as S1. rewrite Hm1 in S1. rewrite (proj1 S1).
  pose proof (jsr_match_spec _ _ [] (tokens_agree_rel _ Hr) fin) as S2. rewrite app_nil_r in S2.
  destruct (jsr_match O _ fin) as [[c2 f2]|]; [|now rewrite S2]. rewrite (proj1 S2). apply final_ok_admits.
Qed.

(* ... and then ExtractParameters, which runs the two expressions again, zips their captures with VarNames
   into the structural bindings *)
Lemma jsr_extract_bindings w r p c1 fin c2 f2 :
  jsr_tokens_agree w r = true -> jsr_names_agree w r = true ->
  jsr_match O (pe_toks (path_expression (s_root w))) p = Some (c1, fin) ->
  jsr_match O (pe_toks (path_expression (r_rel r))) fin = Some (c2, f2) ->
  jsr_extract_parameters O w r p = Some (jsr_route_bindings w r p).
Proof.
  intros Hag Hna Hm1 Hm2. apply andb_true_iff in Hag as [Hagw Hagr]. apply andb_true_iff in Hna as [Hnaw Hnar].
  unfold jsr_extract_parameters. rewrite Hm1, Hm2, !pe_names_map.
  rewrite (rel2_names _ _ (agree_rel2 _ Hagw Hnaw)), (rel2_names _ _ (agree_rel2 _ Hagr Hnar)).
  pose proof (jsr_match_spec _ _ (jsr_tpl (r_rel r)) (tokens_agree_rel _ Hagw) p) as S1. rewrite Hm1 in S1.
  pose proof (jsr_match_spec _ _ [] (tokens_agree_rel _ Hagr) fin) as S2. rewrite Hm2, app_nil_r in S2.
  rewrite (jsr_route_bindings_at w r p (jsr_match_rooted _ _ _ _ Hm1)), (proj2 S1), (proj2 S2).
  cbn [jsr_bindings]. now rewrite app_nil_r.
Qed.

(* its nil-slice index is reached only when the root expression does not match *)
Lemma jsr_extract_total t w r p c1 fin :
  t_router t = Jsr311 -> jsr_match O (pe_toks (path_expression (s_root w))) p = Some (c1, fin) ->
  extract_parameters O t w r p <> None.
Proof. intros Ht Hm1. unfold extract_parameters, jsr_extract_parameters. rewrite Ht, Hm1. discriminate. Qed.

Lemma detect_dispatcher_sound path wss w fin :
  detect_dispatcher O path wss = Some (w, fin) ->
  In w wss /\ exists caps, jsr_match O (pe_toks (path_expression (s_root w))) path = Some (caps, fin).
Proof.
  unfold detect_dispatcher. destruct (sort_desc dc_lt (dispatcher_cands O path wss)) as [|c l] eqn:Es; [discriminate|].
  intros H; injection H as <- <-.
  assert (Hin : In c (dispatcher_cands O path wss)) by (apply (sort_desc_In dc_lt); rewrite Es; now left).
  unfold dispatcher_cands in Hin. apply in_flat_map in Hin as (w0 & Hw & Hc). cbn zeta in Hc.
  destruct (jsr_match O (pe_toks (path_expression (s_root w0))) path) as [[caps fin]|] eqn:Em; [|contradiction].
  destruct Hc as [<-|[]]. cbn. eauto.
Qed.

(* detectDispatcher compares candidates by their keys alone and answers with the service and the final group of
   the first: candidate lists related position by position, with equal keys, give related answers *)
Definition cand_rel (Q : service -> str -> service -> str -> Prop) (c c' : disp_cand) : Prop :=
  dc_key c = dc_key c' /\ Q (dc_ws c) (dc_final c) (dc_ws c') (dc_final c').

Lemma detect_dispatcher_Forall2 Q p p' wss wss' :
  Forall2 (cand_rel Q) (dispatcher_cands O p wss) (dispatcher_cands O p' wss') ->
  match detect_dispatcher O p wss, detect_dispatcher O p' wss' with
  | Some (w, fin), Some (w', fin') => Q w fin w' fin'
  | None, None => True
  | _, _ => False
  end.
Proof.
  intros H. unfold detect_dispatcher.
  (* the sorted lists are related like the unsorted ones; the answers are read off their heads *)
  destruct (sort_desc_Forall2 dc_lt dc_lt (cand_rel Q) (fun a a' b b' Ha Hb => dc_lt_key a a' b b' (proj1 Ha) (proj1 Hb)) _ _ H)
    as [|c c' l l' [_ Hc] _]; [exact Logic.I|exact Hc].
Qed.

(* the candidate RouterJSR311 builds for a route *)
Definition jcand_of (w : service) (fin : str) (r : route) : list route_cand :=
  let pe := path_expression (r_rel r) in
  match jsr_match O (pe_toks pe) fin with
  | Some (caps, f2) =>
      if final_ok f2 then
        [{| rc_route := r; rc_matches := S (List.length caps) + pe_groups pe; rc_literal := pe_literal pe;
            rc_nondef := pe_vars pe; rc_path := route_path w r |}]
      else []
  | None => []
  end.

Lemma jsr_select_routes_In w fin c : In c (jsr_select_routes O w fin) <->
  exists r, In r (s_routes w) /\ In c (jcand_of w fin r).
Proof. unfold jsr_select_routes. rewrite sort_desc_In. apply in_flat_map. Qed.

Lemma jcand_of_root w w' fin r : s_root w = s_root w' -> jcand_of w fin r = jcand_of w' fin r.
Proof. intros H. unfold jcand_of, route_path. now rewrite H. Qed.

Lemma jcand_of_single w fin r c :
  In c (jcand_of w fin r) -> jcand_of w fin r = [c] /\ rc_route c = r /\ rc_path c = route_path w r.
Proof.
  unfold jcand_of. destruct (jsr_match O (pe_toks (path_expression (r_rel r))) fin) as [[caps f2]|]; [|contradiction].
  destruct (final_ok f2); [|contradiction]. intros [<-|[]]. auto.
Qed.

Lemma jsr_detected w fin req r :
  detect_route (map rc_route (jsr_select_routes O w fin)) req = inl r ->
  In r (s_routes w) /\
  exists c2 f2, jsr_match O (pe_toks (path_expression (r_rel r))) fin = Some (c2, f2) /\ final_ok f2 = true.
Proof.
  intros H. apply detect_route_inl in H as (Hi & _). apply in_map_iff in Hi as (c & <- & Hc).
  apply jsr_select_routes_In in Hc as (r & Hr & Hc). unfold jcand_of in Hc.
  destruct (jsr_match O _ fin) as [[c2 f2]|] eqn:Hm2; [|contradiction]. destruct (final_ok f2) eqn:Hf2; [|contradiction].
  destruct Hc as [<-|[]]. eauto.
Qed.

(* what RouterJSR311's answer means for the matcher: both expressions matched, and the route came first through
   detectRoute *)
Lemma jsr_select_route_inl t req w r :
  t_router t = Jsr311 -> select_route O t req = inl (w, r) ->
  exists c1 fin c2 f2,
    In w (t_services t) /\ In r (s_routes w) /\
    jsr_match O (pe_toks (path_expression (s_root w))) (rq_path req) = Some (c1, fin) /\
    jsr_match O (pe_toks (path_expression (r_rel r))) fin = Some (c2, f2) /\ final_ok f2 = true /\
    detect_route (map rc_route (jsr_select_routes O w fin)) req = inl r.
Proof.
  intros Ht H. apply select_route_inl in H. rewrite Ht in H. destruct H as (fin & Ed & Edr).
  apply detect_dispatcher_sound in Ed as (Hw & c1 & Hm1). destruct (jsr_detected _ _ _ _ Edr) as (Hr & c2 & f2 & Hm2 & Hf2).
  exists c1, fin, c2, f2. auto 6.
Qed.

(* C01 for RouterJSR311: a selected route admits the request *)
Theorem jsr_select_route_sound t req w r :
  t_router t = Jsr311 -> select_route O t req = inl (w, r) -> jsr_tokens_agree w r = true ->
  In w (t_services t) /\ In r (s_routes w) /\ jsr_admits O w r req = true.
Proof.
  intros Ht H Hag. apply andb_true_iff in Hag as [Hagw Hagr].
  destruct (jsr_select_route_inl t req w r Ht H) as (c1 & fin & c2 & f2 & Hw & Hr & Hm1 & Hm2 & Hf2 & Hd).
  apply detect_route_inl in Hd as (_ & Hc & Hm & Hct & Ha). split; [exact Hw|]. split; [exact Hr|].
  unfold jsr_admits. now rewrite Hm, Hct, Ha, Hc, <- (jsr_route_iff w r _ c1 fin Hagw Hagr Hm1), Hm2, Hf2.
Qed.

(* C04 for RouterJSR311: the capture groups, paired with VarNames, are the structural bindings *)
Theorem jsr_invoked_params t req w r ps :
  t_router t = Jsr311 -> route_request O t req = RInvoke w r ps ->
  jsr_tokens_agree w r = true -> jsr_names_agree w r = true ->
  ps = fold_left (fun m kv => pset (fst kv) (snd kv) m) (jsr_route_bindings w r (rq_path req)) [].
Proof.
  intros Ht [Hs He]%route_request_invoke Hag Hna.
  destruct (jsr_select_route_inl t req w r Ht Hs) as (c1 & fin & c2 & f2 & _ & _ & Hm1 & Hm2 & _).
  unfold extract_parameters in He. rewrite Ht, (jsr_extract_bindings w r _ c1 fin c2 f2 Hag Hna Hm1 Hm2) in He.
  now injection He as <-.
Qed.

End Jsr.

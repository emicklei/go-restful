(* SlashJsrProofs.v — C14 for RouterJSR311 and for the list computeAllowedMethods gives the OPTIONS filter: appending
   one "/" to the request path changes nothing (templates without tail wildcard, regex variables that do not match
   the empty string). *)
From Model Require Import Str Http Template Table DetectRoute Jsr311 Router Options.
From Spec Require Import RouteSpec.
From Proofs Require Import RouterProofs JsrProofs.

Section Slash.
Variable O : oracles.

Lemma span_seg_app_slash p1 seg rest :
  span_seg p1 = (seg, rest) -> span_seg (p1 ++ [slash]) = (seg, rest ++ [slash]).
Proof.
  revert seg rest. induction p1 as [|c p IH]; intros seg rest H; cbn in *.
  - injection H as <- <-. reflexivity.
  - destruct (Ascii.eqb c slash); [injection H as <- <-; reflexivity|].
    destruct (span_seg p) as [a b]. injection H as <- <-. now rewrite (IH a b eq_refl).
Qed.

Lemma etok_plain_spec e : etok_plain O e = true -> is_eall e = false /\ seg_ok O e [] = false.
Proof.
  destruct e; cbn; intros H; try discriminate H; split; try reflexivity.
  - now destruct s.
  - now apply negb_true_iff.
Qed.

(* the compiled expression on p ++ "/": the same captures, the final group one slash longer *)
Lemma jsr_match_app_slash toks : forall p,
  forallb (etok_plain O) toks = true ->
  jsr_match O toks (p ++ [slash]) =
    match jsr_match O toks p with Some (caps, fin) => Some (caps, fin ++ [slash]) | None => None end.
Proof.
  induction toks as [|e toks IH]; intros p Hpl.
  - rewrite !jsr_match_nil. destruct p as [|c p]; [reflexivity|]. cbn [app rooted]. now destruct (Ascii.eqb c slash).
  - cbn [forallb] in Hpl. apply andb_true_iff in Hpl as [He Hrest]. destruct (etok_plain_spec e He) as [Ha H0].
    rewrite !jsr_match_cons. destruct p as [|c p1]; cbn [app].
    + (* the path ended: the extra slash opens an empty segment, which no plain token accepts *)
      rewrite Ascii.eqb_refl, Ha. cbn [negb span_seg]. now rewrite H0.
    + destruct (negb (Ascii.eqb c slash)); [reflexivity|]. rewrite Ha.
      destruct (span_seg p1) as [seg rest] eqn:Es. rewrite (span_seg_app_slash p1 seg rest Es).
      destruct (seg_ok O e seg); [|reflexivity]. rewrite (IH rest Hrest).
      now destruct (jsr_match O toks rest) as [[caps fin]|].
Qed.

Lemma jsr_match_final_suffix toks : forall p caps fin,
  jsr_match O toks p = Some (caps, fin) -> exists pre, p = pre ++ fin.
Proof.
  induction toks as [|e toks IH]; intros p caps fin H.
  - rewrite jsr_match_nil in H. destruct (rooted p); [|discriminate H]. injection H as <- <-. now exists [].
  - rewrite jsr_match_cons in H. destruct p as [|c p1]; [discriminate H|].
    destruct (negb (Ascii.eqb c slash)); [discriminate H|]. destruct (is_eall e).
    + destruct toks; [|discriminate H]. injection H as <- <-. exists (c :: p1). now rewrite app_nil_r.
    + destruct (span_seg p1) as [seg rest] eqn:Es. apply span_seg_split in Es as (-> & _).
      destruct (seg_ok O e seg); [|discriminate H].
      destruct (jsr_match O toks rest) as [[caps' fin']|] eqn:Em; [|discriminate H]. injection H as <- <-.
      destruct (IH rest caps' fin' Em) as (pre & ->). exists (c :: seg ++ pre). cbn. now rewrite <- app_assoc.
Qed.

Definition ends_slash (p : str) : bool := match rev p with c :: _ => Ascii.eqb c slash | [] => false end.

Lemma ends_slash_suffix pre fin : fin <> [] -> ends_slash (pre ++ fin) = ends_slash fin.
Proof.
  intros H. unfold ends_slash. rewrite rev_app_distr. destruct (rev fin) as [|c l] eqn:E; [|reflexivity].
  apply (f_equal (@rev _)) in E. rewrite rev_involutive in E. now contradiction H.
Qed.

Lemma jsr_match_ends_slash toks p caps fin :
  jsr_match O toks p = Some (caps, fin) -> ends_slash p = false -> ends_slash fin = false.
Proof.
  intros H Hend. destruct (jsr_match_final_suffix _ _ _ _ H) as (pre & ->). destruct fin; [reflexivity|].
  rewrite ends_slash_suffix in Hend by discriminate. exact Hend.
Qed.

(* "" before, "/" after; "/" before is excluded *)
Lemma final_ok_app_slash fin : ends_slash fin = false -> final_ok (fin ++ [slash]) = final_ok fin.
Proof.
  destruct fin as [|c [|d l]]; [reflexivity| |]; unfold final_ok, ends_slash; cbn [rev app str_eqb orb].
  - now intros ->.
  - intros _. now destruct (Ascii.eqb c slash).
Qed.

(* what selectRoutes and computeAllowedMethods do with the routes of a service, on its root's final group *)
Lemma routes_slash {A} (g : route -> list str -> list A) routes fin :
  forallb (fun r => template_plain O (r_rel r)) routes = true -> ends_slash fin = false ->
  flat_map (fun r => match jsr_match O (pe_toks (path_expression (r_rel r))) (fin ++ [slash]) with
                     | Some (caps, f) => if final_ok f then g r caps else []
                     | None => [] end) routes
  = flat_map (fun r => match jsr_match O (pe_toks (path_expression (r_rel r))) fin with
                       | Some (caps, f) => if final_ok f then g r caps else []
                       | None => [] end) routes.
Proof.
  intros Hpl Hend. rewrite !flat_map_concat_map. f_equal. apply map_ext_in. intros r Hr.
  rewrite (jsr_match_app_slash _ fin (proj1 (forallb_forall _ _) Hpl r Hr)).
  destruct (jsr_match O (pe_toks (path_expression (r_rel r))) fin) as [[caps f]|] eqn:Em; [|reflexivity].
  now rewrite (final_ok_app_slash f (jsr_match_ends_slash _ _ _ _ Em Hend)).
Qed.

Lemma detect_dispatcher_slash p wss :
  forallb (fun w => template_plain O (s_root w)) wss = true ->
  detect_dispatcher O (p ++ [slash]) wss =
    match detect_dispatcher O p wss with Some (w, fin) => Some (w, fin ++ [slash]) | None => None end.
Proof.
  intros H.
  assert (Hc : Forall2 (cand_rel (fun w fin w' fin' => w' = w /\ fin' = fin ++ [slash]))
                       (dispatcher_cands O p wss) (dispatcher_cands O (p ++ [slash]) wss)).
  { unfold dispatcher_cands. induction wss as [|w wss IH]; cbn [flat_map forallb] in *; [constructor|].
    apply andb_true_iff in H as [Hw Hrest]. rewrite (jsr_match_app_slash _ p Hw).
    destruct (jsr_match O (pe_toks (path_expression (s_root w))) p) as [[caps fin]|]; cbn [app]; [|now apply IH].
    constructor; [now repeat split|now apply IH]. }
  apply detect_dispatcher_Forall2 in Hc.
  destruct (detect_dispatcher O p wss) as [[w fin]|], (detect_dispatcher O (p ++ [slash]) wss) as [[w' fin']|];
    try contradiction; [|reflexivity].
  now destruct Hc as [-> ->].
Qed.

Lemma table_plain_in t w :
  table_plain O t = true -> In w (t_services t) ->
  template_plain O (s_root w) = true /\ forallb (fun r => template_plain O (r_rel r)) (s_routes w) = true.
Proof. intros H Hw. apply andb_true_iff. exact (proj1 (forallb_forall _ _) H w Hw). Qed.

(* C14, RouterJSR311: the same route (or the same error), the same parameters *)
Theorem jsr_trailing_slash t req p :
  t_router t = Jsr311 -> table_plain O t = true -> ends_slash p = false ->
  route_request O t (with_path req (p ++ [slash])) = route_request O t (with_path req p).
Proof.
  intros Hr Hpl Hend. unfold route_request. rewrite !select_route_eq, Hr. cbn [with_path rq_path].
  rewrite detect_dispatcher_slash
    by (apply forallb_forall; intros w Hw; exact (proj1 (table_plain_in t w Hpl Hw))).
  destruct (detect_dispatcher O p (t_services t)) as [[w fin]|] eqn:Ed; [|reflexivity].
  destruct (detect_dispatcher_sound O p _ w fin Ed) as (Hw & caps & Hm).
  destruct (table_plain_in t w Hpl Hw) as [Hroot Hroutes].
  unfold jsr_select_routes at 1. rewrite (routes_slash _ _ fin Hroutes (jsr_match_ends_slash _ _ _ _ Hm Hend)), !detect_route_with_path. fold (jsr_select_routes O w fin).
  destruct (detect_route (map rc_route (jsr_select_routes O w fin)) req) as [r|e] eqn:Edr; [|reflexivity].
  (* the parameters: the captures do not change *)
  apply jsr_detected in Edr as [Edr _]. unfold extract_parameters, jsr_extract_parameters. rewrite Hr.
  rewrite (jsr_match_app_slash _ p Hroot), Hm, (jsr_match_app_slash _ fin (proj1 (forallb_forall _ _) Hroutes _ Edr)).
  now destruct (jsr_match O (pe_toks (path_expression (r_rel r))) fin) as [[rcaps rfin]|].
Qed.

(* C14 for the OPTIONS filter: computeAllowedMethods gives the same list for p and p + "/" *)
Theorem allowed_methods_trailing_slash t p :
  table_plain O t = true -> ends_slash p = false ->
  compute_allowed_methods O t (p ++ [slash]) = compute_allowed_methods O t p.
Proof.
  intros Hpl Hend. unfold compute_allowed_methods. rewrite !flat_map_concat_map. f_equal. apply map_ext_in. intros w Hw.
  destruct (table_plain_in t w Hpl Hw) as [Hroot Hroutes]. rewrite (jsr_match_app_slash _ p Hroot).
  destruct (jsr_match O (pe_toks (path_expression (s_root w))) p) as [[caps fin]|] eqn:Em; [|reflexivity].
  exact (routes_slash (fun r _ => [r_method r]) _ fin Hroutes (jsr_match_ends_slash _ _ _ _ Em Hend)).
Qed.

End Slash.

(* CurlyProofs.v — what CurlyRouter's token matcher decides and counts, in terms
   of the structural templates of spec/RouteSpec.v *)
From Model Require Import Str Http Template Curly.
From Spec Require Import RouteSpec RankSpec.
From Proofs Require Import StrFacts TemplateFacts.
From Coq Require Import Lia.

Definition is_some {A} (o : option A) : bool := match o with Some _ => true | None => false end.

Definition tail_has_no_verb (t : vtok) : bool :=
  match v_verb t with Some _ => negb (is_tail t) | None => true end.

(* what a token adds to paramCount and to staticCount: a verb counts as a static *)
Definition tok_params (t : vtok) : nat := if is_lit t then 0 else 1.
Definition tok_statics (t : vtok) : nat :=
  (if is_lit t then 1 else 0) + match v_verb t with Some _ => 1 | None => 0 end.
Definition n_params (tpl : list vtok) : nat := list_sum (map tok_params tpl).
Definition n_statics (tpl : list vtok) : nat := list_sum (map tok_statics tpl).

Lemma n_params_cons t tpl : n_params (t :: tpl) = tok_params t + n_params tpl.
Proof. reflexivity. Qed.
Lemma n_statics_cons t tpl : n_statics (t :: tpl) = tok_statics t + n_statics tpl.
Proof. reflexivity. Qed.

(* Both loops (matchesRouteByPathTokens, ExtractParameters) begin by taking the custom verb off the template token [rt]
   and off the path token beside it.  For a well-formed [rt], read as [t]: the code's test [verb] says whether [t] has a
   verb; what is left of [rt], [key], is the rendering of [t]'s structural part and reads back as it; the verb test on
   the path token, with what is left of that token, is [strip_verb] *)
Lemma verb_view hcv rt :
  wf_tok_str hcv rt = true ->
  let t := parse_tok hcv rt in
  let verb := hcv && has_custom_verb rt in
  let key := if verb then remove_custom_verb rt else rt in
  wf_tk (v_tk t) = true /\
  verb = is_some (v_verb t) /\
  key = render_tk (v_tk t) /\
  parse_tk key = v_tk t /\
  forall qt, strip_verb (v_verb t) qt =
             if verb && negb (is_match_custom_verb rt qt) then None else Some (if verb then remove_custom_verb qt else qt).
Proof.
  unfold wf_tok_str, render, parse_tok, has_custom_verb, is_match_custom_verb.
  intros [Hr%str_eqb_eq Hk]%andb_true_iff. split; [exact Hk|]. clear Hk.
  destruct hcv; [destruct (verb_split rt) as [[b v]|] eqn:E|]; cbn [v_tk v_verb andb is_some negb strip_verb] in *;
    try (rewrite app_nil_r in Hr; now auto).
  replace (remove_custom_verb rt) with b by (unfold remove_custom_verb; now rewrite E).
  apply verb_split_inv in E as (E & Hne & Hl). rewrite E in Hr. apply app_inv_tail in Hr.
  repeat split; [now symmetry|]. intros qt.
  destruct (has_suffix qt (colon :: v)) eqn:Hs; [|reflexivity]. cbn [negb]. now rewrite (remove_custom_verb_suffix qt v Hne Hl Hs).
Qed.

Lemma wf_positions_cons t tpl :
  wf_positions (t :: tpl) = true ->
  tail_has_no_verb t = true /\ wf_positions tpl = true /\ (is_tail t = true -> tpl = []).
Proof.
  destruct tpl as [|t' tpl]; [cbn; auto|].
  change (wf_positions (t :: t' :: tpl)) with
    (negb (is_tail t) && (match v_verb t with None => true | Some _ => false end) && wf_positions (t' :: tpl)).
  unfold tail_has_no_verb. destruct (is_tail t), (v_verb t); cbn; intros H; try discriminate H;
    (split; [reflexivity|split; [exact H|discriminate]]).
Qed.

(* a variable token is a brace, a name, a delimiter (":" or "}") and a rest: the code finds the delimiter at the
   end of the name, reads the name before it and the rest after it *)
Lemma var_token_raw n d rest :
  Ascii.eqb d lbrace = false -> no_char d n = true ->
  let b := lbrace :: n ++ d :: rest in
  let e := S (List.length n) in
  index_char b d = Some e /\ slice b 1 e = n /\ skipn (e + 1) b = rest /\ List.length b = e + 1 + List.length rest.
Proof.
  intros Hd Hn%negb_true_iff. cbv zeta. repeat split.
  - apply (index_char_app_notin (lbrace :: n)). cbn [existsb]. now rewrite Hd, Hn.
  - exact (slice_app_mid [lbrace] n (d :: rest)).
  - rewrite Nat.add_1_r. exact (skipn_app_cons (lbrace :: n) d rest).
  - cbn [List.length]. rewrite app_length. cbn [List.length]. lia.
Qed.

Section P.
Variable O : oracles.

(* the loop body of matchesRouteByPathTokens after the verb has been dealt with; [K] is the rest of the loop *)
Definition core_match (b qt : str) (pc sc : nat) (K : nat -> nat -> option (nat * nat)) : option (nat * nat) :=
  if has_prefix b [lbrace] then
    match index_char b colon with
    | Some c =>
        let '(mt, mr) := regular_matches_path_token O b c qt in
        if negb mt then None else if mr then Some (S pc, sc) else K (S pc) sc
    | None =>
        match index_char b rbrace with
        | Some e =>
            if Nat.ltb e (List.length b - 1) && negb (has_suffix qt (skipn (e + 1) b))
            then None else K (S pc) sc
        | None => K (S pc) sc
        end
    end
  else if str_eqb qt b then K pc (S sc) else None.

Lemma match_tokens_unfold hcv rt rts qt qts pc sc :
  match_tokens O hcv (rt :: rts) (qt :: qts) pc sc =
    let verb := hcv && has_custom_verb rt in
    if verb && negb (is_match_custom_verb rt qt) then None
    else core_match (if verb then remove_custom_verb rt else rt) (if verb then remove_custom_verb qt else qt)
                    pc (if verb then S sc else sc) (match_tokens O hcv rts qts).
Proof. reflexivity. Qed.

(* one turn, for any token [t] whose structural part is what [b] reads as: a verb of [t] plays no part *)
Lemma core_match_spec t b qt pc sc K :
  parse_tk b = v_tk t -> wf_tk (v_tk t) = true ->
  core_match b qt pc sc K =
    let pc' := tok_params t + pc in
    let sc' := if is_lit t then S sc else sc in
    if is_tail t then Some (pc', sc') else if tk_admits O (v_tk t) qt then K pc' sc' else None.
Proof.
  unfold tok_params, is_lit, is_tail. intros <-. unfold core_match, parse_tk, regular_matches_path_token. intros Hwf.
  destruct (has_prefix b [lbrace]) eqn:Hp; [|reflexivity].
  destruct (index_char b colon) as [c|].
  - destruct (str_eqb (slice b (c + 1) (List.length b - 1)) (L "*")); cbn [negb tk_admits]; [reflexivity|].
    destruct (o_rx O _ qt); reflexivity.
  - destruct (index_char b rbrace) as [e|] eqn:He.
    + apply index_char_Some in He as (Hlt & _).
      pose proof (skipn_length (e + 1) b) as Hl.
      destruct (skipn (e + 1) b) as [|s0 sr]; cbn [List.length] in Hl.
      * replace (Nat.ltb e (List.length b - 1)) with false by (symmetry; apply Nat.ltb_ge; lia). reflexivity.
      * replace (Nat.ltb e (List.length b - 1)) with true by (symmetry; apply Nat.ltb_lt; lia).
        cbn [andb tk_admits]. destruct (has_suffix qt (s0 :: sr)); reflexivity.
    + (* "{..." without colon or closing brace is not well-formed *)
      cbn [wf_tk] in Hwf. destruct b as [|b0 b']; [discriminate Hp|]. cbn in Hp. rewrite andb_true_r in Hp.
      unfold no_char in Hwf. cbn [existsb] in Hwf. rewrite Ascii.eqb_sym, Hp in Hwf. discriminate.
Qed.

Lemma match_tokens_step hcv rt rts qt qts pc sc :
  wf_tok_str hcv rt = true ->
  let t := parse_tok hcv rt in
  tail_has_no_verb t = true ->
  match_tokens O hcv (rt :: rts) (qt :: qts) pc sc =
    if is_tail t then Some (tok_params t + pc, tok_statics t + sc)
    else if vtok_admits O t qt then match_tokens O hcv rts qts (tok_params t + pc) (tok_statics t + sc)
    else None.
Proof.
  intros Hwf t Htv. destruct (verb_view hcv rt Hwf) as (Hk & Hverb & _ & Hparse & Hstrip). fold t in Hk, Hverb, Hparse, Hstrip.
  rewrite match_tokens_unfold. cbv zeta. rewrite (core_match_spec t _ _ _ _ _ Hparse Hk). cbv zeta.
  unfold vtok_admits. rewrite Hstrip, Hverb. unfold tok_statics, tail_has_no_verb in *.
  destruct (v_verb t); cbn [is_some andb].
  - (* a verb: one more static; the token is no tail wildcard *)
    apply negb_true_iff in Htv. rewrite Htv. destruct (is_match_custom_verb rt qt); [|reflexivity]. now destruct (is_lit t).
  - now destruct (is_lit t).
Qed.

Lemma tail_token_iff hcv rt :
  wf_tok_str hcv rt = true -> tail_has_no_verb (parse_tok hcv rt) = true ->
  is_tail_wildcard_token rt = is_tail (parse_tok hcv rt).
Proof.
  intros Hwf Htv. destruct (verb_view hcv rt Hwf) as (Hk & Hverb & Hrender & Hparse & _).
  unfold tail_has_no_verb, is_tail in *. destruct (v_verb (parse_tok hcv rt)); cbn [is_some] in Hverb; rewrite Hverb in *.
  - (* a verb: the token ends in a letter, so it cannot end in "*}" *)
    apply negb_true_iff in Htv. rewrite Htv.
    apply andb_true_iff in Hverb as [_ (b & v & (Hrt & Hne & Hl)%verb_split_inv)%has_custom_verb_true].
    unfold is_tail_wildcard_token. destruct (has_prefix rt [lbrace]); [|reflexivity].
    destruct (index_char rt colon) as [c|]; [|reflexivity]. apply str_eqb_neq. intros Hsk.
    destruct (exists_last Hne) as (v0 & vl & ->).
    rewrite forallb_app in Hl. apply andb_true_iff in Hl as [_ Hl].
    assert (E : (b ++ colon :: v0) ++ [vl] = (firstn (c + 1) rt ++ L "*") ++ [rbrace]).
    { rewrite <- !app_assoc. change (L "*" ++ [rbrace]) with (L "*}"). now rewrite <- Hsk, firstn_skipn. }
    apply app_inj_tail in E as [_ ->]. discriminate Hl.
  - rewrite <- Hparse in *. destruct (is_tail_wildcard_token rt) eqn:Eraw; unfold is_tail_wildcard_token in Eraw.
    + apply andb_true_iff in Eraw as [Hp Hx]. destruct (index_char rt colon) as [c|] eqn:Hc; [|discriminate Hx].
      apply str_eqb_eq in Hx. unfold parse_tk. now rewrite Hp, Hc, (slice_but_last rt (c + 1) (L "*") rbrace Hx).
    + (* the rendering of a tail token passes the raw test *)
      destruct (parse_tk rt) as [s|n|n re|n suf|n]; try reflexivity.
      apply andb_true_iff in Hk as [[Hn _]%andb_true_iff _].
      destruct (var_token_raw n colon (L "*}") eq_refl Hn) as (Hc & _ & Hsk & _).
      rewrite Hrender in Eraw. change (render_tk (TTail n)) with (lbrace :: n ++ colon :: L "*}") in Eraw.
      rewrite Hc, Hsk in Eraw. discriminate Eraw.
Qed.

(* the code looks for the tail wildcard in the last token, where alone a well-formed template may have one *)
Lemma last_token_tail hcv rts :
  forallb (wf_tok_str hcv) rts = true -> wf_positions (map (parse_tok hcv) rts) = true ->
  match rts with [] => true | _ => negb (is_tail_wildcard_token (last rts [])) end
  = negb (existsb is_tail (map (parse_tok hcv) rts)).
Proof.
  induction rts as [|rt rts IH]; [reflexivity|]. cbn [forallb map existsb].
  intros [Hw Hws]%andb_true_iff (Htv & Hpos & Hlast)%wf_positions_cons. destruct rts as [|r rts].
  - cbn [last map existsb]. now rewrite (tail_token_iff hcv rt Hw Htv), orb_false_r.
  - destruct (is_tail (parse_tok hcv rt)); [discriminate (Hlast eq_refl)|]. exact (IH Hws Hpos).
Qed.

(* the third premise is what matchesRouteByPathTokens tests before the loop: the path is no longer than the template,
   unless a tail wildcard lies ahead, where the loop breaks off *)
Lemma match_tokens_spec hcv rts qts pc sc :
  let tpl := map (parse_tok hcv) rts in
  forallb (wf_tok_str hcv) rts = true -> wf_positions tpl = true ->
  List.length qts <= List.length rts \/ existsb is_tail tpl = true ->
  match_tokens O hcv rts qts pc sc =
    if admits_path O tpl qts then Some (n_params tpl + pc, n_statics tpl + sc) else None.
Proof.
  cbn zeta. revert qts pc sc. induction rts as [|rt rts IH]; intros qts pc sc Hwf Hpos Hlen.
  - destruct qts; [reflexivity|]. destruct Hlen as [H|H]; [cbn in H; lia|discriminate H].
  - destruct qts as [|qt qts]; [reflexivity|].
    cbn [forallb map existsb] in *. apply andb_true_iff in Hwf as [Hw1 Hw2].
    apply wf_positions_cons in Hpos as (Htv & Hpos & Hlast).
    rewrite (match_tokens_step hcv rt rts qt qts pc sc Hw1 Htv). cbn [admits_path].
    set (t := parse_tok hcv rt) in *.
    rewrite n_params_cons, n_statics_cons, <- !Nat.add_assoc, (Nat.add_shuffle3 (tok_params t)), (Nat.add_shuffle3 (tok_statics t)).
    destruct (is_tail t).
    + now rewrite (Hlast eq_refl).
    + destruct (vtok_admits O t qt); [|reflexivity]. apply IH; [exact Hw2|exact Hpos|].
      destruct Hlen as [H|H]; [left; cbn in H; lia|now right].
Qed.

Lemma admits_path_bound tpl segs :
  admits_path O tpl segs = true -> List.length segs <= List.length tpl \/ existsb is_tail tpl = true.
Proof.
  revert segs. induction tpl as [|t tpl IH]; intros [|s segs] H; try discriminate H; [left; cbn; lia|].
  cbn [admits_path existsb] in *. destruct (is_tail t); [now right|].
  apply andb_true_iff in H as [_ H]. apply IH in H as [H|H]; [left; cbn; lia|now right].
Qed.

(* matchesRouteByPathTokens decides exactly admits_path on well-formed templates,
   and its counters are those of the template *)
Theorem matches_route_spec hcv rts qts :
  wf_template hcv rts = true ->
  let tpl := map (parse_tok hcv) rts in
  matches_route_by_path_tokens O rts qts hcv =
    if admits_path O tpl qts then Some (n_params tpl, n_statics tpl) else None.
Proof.
  intros Hwf tpl. apply andb_true_iff in Hwf as [Hw Hpos]. fold tpl in Hpos.
  unfold matches_route_by_path_tokens.
  rewrite (last_token_tail hcv rts Hw Hpos). fold tpl.
  pose proof (match_tokens_spec hcv rts qts 0 0 Hw Hpos) as Hm. fold tpl in Hm. rewrite !Nat.add_0_r in Hm.
  destruct (Nat.ltb_spec (List.length rts) (List.length qts)) as [Hlt|Hge]; [|apply Hm; now left].
  destruct (existsb is_tail tpl) eqn:Et; cbn [negb andb]; [apply Hm; now right|].
  destruct (admits_path O tpl qts) eqn:Ea; [|reflexivity].
  apply admits_path_bound in Ea as [H|H]; [unfold tpl in H; rewrite map_length in H; lia|congruence].
Qed.

End P.

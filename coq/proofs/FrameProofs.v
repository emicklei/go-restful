(* FrameProofs.v — C12, frame clause: the answer to a request depends on the registration state only through the
   ordered list of root paths and the routes of the ONE service that claims the URL; routes added to or removed
   from any other service, at any moment, cannot change it.  The lemmas [detect_*_rel] (service detection answers
   related tables alike) also serve C03's order theorems and LinearProofs. *)
From Model Require Import Str Http Template Table Curly Jsr311 Router.
From Proofs Require Import JsrProofs.

Section Frame.
Variable O : oracles.

Definition opt_rel {A} (R : A -> A -> Prop) (a b : option A) : Prop :=
  match a, b with Some x, Some y => R x y | None, None => True | _, _ => False end.

(* CurlyRouter.detectWebService looks at root paths only: it carries any relation that keeps them *)
Lemma detect_ws_loop_rel (R : service -> service -> Prop) qts wss wss' :
  (forall w w', R w w' -> s_root w = s_root w') ->
  forall best best' score, Forall2 R wss wss' -> opt_rel R best best' ->
  opt_rel R (detect_ws_loop O qts wss best score) (detect_ws_loop O qts wss' best' score).
Proof.
  intros HR best best' score H. revert best best' score.
  induction H as [|w w' l l' Hw Hl IH]; intros best best' score Hb; cbn [detect_ws_loop]; [exact Hb|].
  rewrite <- (HR w w' Hw). destruct (compute_webservice_score O qts (tokenize (s_root w))) as [m sc].
  destruct (m && Z.ltb score (Z.of_nat sc)); apply IH; [exact Hw|exact Hb].
Qed.

Lemma detect_web_service_rel (R : service -> service -> Prop) qts wss wss' :
  (forall w w', R w w' -> s_root w = s_root w') -> Forall2 R wss wss' ->
  opt_rel R (detect_web_service O qts wss) (detect_web_service O qts wss').
Proof. intros HR H. unfold detect_web_service. now apply detect_ws_loop_rel. Qed.

(* RouterJSR311.detectDispatcher: a candidate carries its service along; what is matched and the keys come from the
   root alone *)
Lemma detect_dispatcher_rel (R : service -> service -> Prop) path wss wss' :
  (forall w w', R w w' -> s_root w = s_root w') -> Forall2 R wss wss' ->
  match detect_dispatcher O path wss, detect_dispatcher O path wss' with
  | Some (w, fin), Some (w', fin') => R w w' /\ fin = fin'
  | None, None => True
  | _, _ => False
  end.
Proof.
  intros HR H. apply (detect_dispatcher_Forall2 O (fun w fin w' fin' => R w w' /\ fin = fin')). unfold dispatcher_cands.
  induction H as [|w w' l l' Hw _ IH]; cbn [flat_map]; [constructor|]. rewrite <- (HR w w' Hw).
  destruct (jsr_match O (pe_toks (path_expression (s_root w))) path) as [[caps fin]|]; cbn [app]; [|exact IH].
  constructor; [|exact IH]. repeat split. exact Hw.
Qed.

(* the position-wise relation "same root, and identical unless touched" *)
Definition untouched_same (touched : str -> bool) (w w' : service) : Prop :=
  s_root w = s_root w' /\ (touched (s_root w) = false -> w = w').

Theorem frame (touched : str -> bool) (t t' : table) (req : request) :
  t_router t = t_router t' ->
  Forall2 (untouched_same touched) (t_services t) (t_services t') ->
  (forall w, match t_router t with
             | Curly => detect_web_service O (tokenize (rq_path req)) (t_services t) = Some w
             | Jsr311 => exists fin, detect_dispatcher O (rq_path req) (t_services t) = Some (w, fin)
             end -> touched (s_root w) = false) ->
  select_route O t req = select_route O t' req.
Proof.
  intros Hr Hf Hunt. unfold select_route. rewrite <- Hr. destruct (t_router t).
  - pose proof (detect_web_service_rel (untouched_same touched) (tokenize (rq_path req)) _ _ (fun w w' H => proj1 H) Hf) as Hd.
    destruct (detect_web_service O _ (t_services t)) as [w|], (detect_web_service O _ (t_services t')) as [w'|];
      try contradiction; [|reflexivity].
    destruct Hd as [_ Hsame]. now rewrite <- (Hsame (Hunt w eq_refl)).
  - pose proof (detect_dispatcher_rel (untouched_same touched) (rq_path req) _ _ (fun w w' H => proj1 H) Hf) as Hd.
    destruct (detect_dispatcher O _ (t_services t)) as [[w fin]|], (detect_dispatcher O _ (t_services t')) as [[w' fin']|];
      try contradiction; [|reflexivity].
    destruct Hd as [[_ Hsame] <-]. now rewrite <- (Hsame (Hunt w (ex_intro _ fin eq_refl))).
Qed.

End Frame.

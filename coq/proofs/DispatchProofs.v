(* DispatchProofs.v — C06 (order of the chain), C07 (compressor discipline),
   C10 (panics) on the model of container.go / filter.go / compress.go.
   First the interpreter itself, level by level (the writer, scripts, the chain, dispatch and the entry points): what
   runs at a level under names of its own, the equation of the model's function over them, and the way a property of
   the state is carried through that level.  Then the provider's ledger, the structural events, recovery. *)
From Model Require Import Str Http Table DetectRoute Router Dispatch.
From Spec Require Import DispatchSpec.
From Proofs Require Import StrFacts.

(* WriteHeader, Write and Close change the writer's side of the state and nothing else: status, raw chunks,
   compressor, release counter *)
Definition with_writer (s : rstate) (st : option Z) (raw : list str) (comp : option (coding * list str * bool))
           (rel : nat) : rstate :=
  {| st_status := st; st_hdr := st_hdr s; st_raw := raw; st_comp := comp; st_log := st_log s; st_attrs := st_attrs s;
     st_acq := st_acq s; st_rel := rel; st_recovered := st_recovered s; st_pretty := st_pretty s; st_upper := st_upper s |}.

Definition first_status (s : rstate) (n : Z) : option Z := match st_status s with Some m => Some m | None => Some n end.

Lemma rstate_eta s : s = with_writer s (st_status s) (st_raw s) (st_comp s) (st_rel s).
Proof. now destruct s. Qed.

Lemma write_header_eq s n : write_header s n = with_writer s (first_status s n) (st_raw s) (st_comp s) (st_rel s).
Proof. unfold write_header, first_status. destruct (st_status s) eqn:E; [rewrite <- E; apply rstate_eta|reflexivity]. Qed.

Lemma write_body_eq s b0 :
  let b := if Nat.ltb 0 (st_upper s) then upper_ascii b0 else b0 in
  write_body s b0 =
  with_writer s (match st_comp s with Some (_, _, true) => st_status s | _ => first_status s 200 end)
                (match st_comp s with None => st_raw s ++ [b] | _ => st_raw s end)
                (match st_comp s with Some (c, ch, false) => Some (c, ch ++ [b], false) | x => x end)
                (st_rel s).
Proof.
  intros b. unfold write_body. fold b. rewrite write_header_eq.
  destruct (st_comp s) as [[[c ch] [|]]|] eqn:Ec; [rewrite <- Ec; apply rstate_eta|reflexivity|reflexivity].
Qed.

Lemma close_comp_eq s :
  close_comp s =
  with_writer s (match st_comp s with Some (_, _, false) => first_status s 200 | _ => st_status s end)
                (st_raw s)
                (match st_comp s with Some (c, ch, false) => Some (c, ch, true) | x => x end)
                (match st_comp s with Some (_, _, false) => S (st_rel s) | _ => st_rel s end).
Proof.
  unfold close_comp. rewrite write_header_eq.
  destruct (st_comp s) as [[[c ch] [|]]|] eqn:Ec; [| reflexivity |]; rewrite <- Ec; apply rstate_eta.
Qed.

Lemma inv_bind (P : rstate -> Prop) r k :
  P (state_of r) -> (forall s, P s -> P (state_of (k s))) -> P (state_of (bind r k)).
Proof. destruct r; cbn; auto. Qed.

Lemma inv_run_actions (P : rstate -> Prop) l :
  (forall a s, In a l -> P s -> P (state_of (run_action a s))) ->
  forall s, P s -> P (state_of (run_actions l s)).
Proof.
  induction l as [|a l IH]; intros Ha s Hs; [exact Hs|]. cbn [run_actions].
  apply inv_bind; [apply Ha; [now left|exact Hs]|].
  intros s1 H1. apply IH; [|exact H1]. intros a0 s0 Hin. apply Ha. now right.
Qed.

Definition panic_free (l : list action) : bool := negb (existsb action_is_panic l).
Definition fscript_panic_free (f : fscript) : bool := negb (fscript_has_panic f).

Lemma fscript_panic_free_parts f :
  fscript_panic_free f = true -> panic_free (f_pre f) = true /\ panic_free (f_post f) = true.
Proof.
  unfold fscript_panic_free, fscript_has_panic, panic_free. intros H. apply negb_true_iff, orb_false_iff in H as [-> ->]. now split.
Qed.

Lemma run_action_done a s : action_is_panic a = false -> run_action a s = Done (state_of (run_action a s)).
Proof. destruct a; [reflexivity..|discriminate|reflexivity|reflexivity|reflexivity]. Qed.

(* a script without APanic ends normally, and what relates its first state to its last is proved action by action *)
Lemma run_actions_rel (R : list action -> rstate -> rstate -> Prop) :
  (forall s, R [] s s) ->
  (forall a l s s', R l (state_of (run_action a s)) s' -> R (a :: l) s s') ->
  forall l s, panic_free l = true -> exists s', run_actions l s = Done s' /\ R l s s'.
Proof.
  intros R0 RS l s H. apply negb_true_iff in H. pose proof (existsb_false_In _ _ H) as Hl. clear H. revert s.
  induction l as [|a l IH]; intros s; [exists s; auto|].
  cbn [run_actions]. rewrite run_action_done by (apply Hl; now left). cbn [bind].
  destruct (IH (fun a0 Hin => Hl a0 (or_intror Hin)) (state_of (run_action a s))) as (s' & E & Hr). eauto.
Qed.

Definition enter (f : fscript) (s1 : rstate) : rstate :=
  let s1' := if f_fresh f then upd_attrs s1 [] else s1 in
  if f_wrap f then set_wrapper s1' true (S (st_upper s1')) else s1'.
Definition leave (f : fscript) (s1 s2 : rstate) : rstate :=
  let s2' := if f_fresh f then upd_attrs s2 (st_attrs s1) else s2 in
  if f_wrap f then set_wrapper s2' (st_pretty s1) (st_upper s1) else s2'.
Definition finish (f : fscript) (s : rstate) : res :=
  bind (run_actions (f_post f) s) (fun s3 => Done (upd_log s3 (L "post:" ++ f_id f))).

Lemma run_chain_cons f rest target s :
  run_chain (f :: rest) target s =
  bind (run_actions (f_pre f) (upd_log s (L "pre:" ++ f_id f))) (fun s1 =>
    if f_pass f then bind (run_chain rest target (enter f s1)) (fun s2 => finish f (leave f s1 s2))
    else finish f s1).
Proof. reflexivity. Qed.

Section ChainInvariant.
Variable P : rstate -> Prop.
Variable good : list action -> Prop.
Hypothesis P_script : forall l s, good l -> P s -> P (state_of (run_actions l s)).
Hypothesis P_log : forall s e, P s -> P (upd_log s e).
Hypothesis P_attrs : forall s a, P s -> P (upd_attrs s a).
Hypothesis P_wrapper : forall s p u, P s -> P (set_wrapper s p u).

Lemma inv_enter f s : P s -> P (enter f s).
Proof. unfold enter. destruct (f_fresh f), (f_wrap f); auto. Qed.
Lemma inv_leave f s1 s2 : P s2 -> P (leave f s1 s2).
Proof. unfold leave. destruct (f_fresh f), (f_wrap f); auto. Qed.
Lemma inv_finish f s : good (f_post f) -> P s -> P (state_of (finish f s)).
Proof. intros Hg Hs. unfold finish. apply inv_bind; [now apply P_script|]. intros s3 H3. now apply P_log. Qed.

Lemma inv_run_chain fs target :
  (forall f, In f fs -> good (f_pre f) /\ good (f_post f)) ->
  (forall s, P s -> P (state_of (target s))) ->
  forall s, P s -> P (state_of (run_chain fs target s)).
Proof.
  intros Hg Ht. induction fs as [|f rest IH]; intros s Hs; [now apply Ht|].
  destruct (Hg f (or_introl eq_refl)) as [Gpre Gpost].
  rewrite run_chain_cons. apply inv_bind; [apply P_script; auto|]. intros s1 H1.
  destruct (f_pass f); [|now apply inv_finish].
  apply inv_bind.
  - apply IH; [intros f0 Hin; apply Hg; now right|now apply inv_enter].
  - intros s2 H2. now apply inv_finish, inv_leave.
Qed.
End ChainInvariant.

(* the lines that dispatch, ServeHTTP and Handle have in common (container.go:271, :358, :392): unless the writer
   handed in is a compressing one already, and if content encoding is enabled at this place,
   NewCompressingResponseWriter with the coding the request wants, if it wants one *)
Definition install_wanted (already enabled : bool) (req : request) (s : rstate) : rstate :=
  if already then s
  else if enabled then match wants_compressed req s with Some c => install c s | None => s end
  else s.
(* a deferred Close *)
Definition closing (r : res) : res :=
  match r with Done s => Done (close_comp s) | Panicked m s => Panicked m (close_comp s) end.
Definition has_comp (s : rstate) : bool := match st_comp s with Some _ => true | None => false end.
(* the state the RecoverHandler starts in: it is handed the container's own writer, so no wrapper of the chain is in
   between (prettyPrint at its default, no upper-casing writer) *)
Definition recover_entry (m : str) (s : rstate) : rstate :=
  {| st_status := st_status s; st_hdr := st_hdr s; st_raw := st_raw s; st_comp := st_comp s;
     st_log := st_log s ++ [L "recover:" ++ m]; st_attrs := st_attrs s;
     st_acq := st_acq s; st_rel := st_rel s; st_recovered := S (st_recovered s);
     st_pretty := true; st_upper := 0 |}.
Definition recovering (cfg : dcfg) (r : res) : res :=
  match r with
  | Done s => Done s
  | Panicked m s => if d_recover cfg then run_actions (d_recover_script cfg) (recover_entry m s) else Panicked m s
  end.

Lemma install_wanted_off already req s : install_wanted already false req s = s.
Proof. now destruct already. Qed.

Lemma inv_install_wanted (P : rstate -> Prop) already enabled req s :
  P s -> (forall c, P (install c s)) -> P (install_wanted already enabled req s).
Proof. intros Hs Hi. unfold install_wanted. destruct already, enabled, (wants_compressed req s); auto. Qed.

Lemma state_of_closing r : state_of (closing r) = close_comp (state_of r).
Proof. destruct r; reflexivity. Qed.

Lemma inv_recovering (P : rstate -> Prop) cfg r :
  (forall m s, P s -> P (state_of (run_actions (d_recover_script cfg) (recover_entry m s)))) ->
  P (state_of r) -> P (state_of (recovering cfg r)).
Proof. intros H. destruct r as [s|m s]; cbn; [auto|]. destruct (d_recover cfg); auto. Qed.

(* the error writer does nothing a script could not do: what holds of every script holds of it *)
Definition error_script (e : rerr) : list action :=
  match e with
  | E404 => [AStatus 404; AWrite []]
  | E405 a => [AHeader H_Allow (join (L ", ") a); AStatus 405; AWrite []]
  | E415 => [AStatus 415; AWrite []]
  | E406 => [AStatus 406; AWrite []]
  end.
Lemma write_service_error_eq e s : write_service_error e s = run_actions (error_script e) s.
Proof. now destruct e. Qed.

Section Stages.
Variable O : oracles.

Definition handler_target (cfg : dcfg) (r : route) (s : rstate) : res :=
  run_actions (handler_of cfg r)
    (upd_log (upd_log s (L "H:" ++ itoa (r_id r)))
             (L "saw:" ++ attr_get K_sel (st_attrs s) ++ L " " ++ attr_get K_params (st_attrs s))).
Definition route_filters (cfg : dcfg) (w : service) (r : route) : list fscript :=
  d_cfilters cfg ++ sfilters_of cfg w ++ rfilters_of cfg r.
Definition serve_route (cfg : dcfg) (w : service) (r : route) (req : request) (s : rstate) : res :=
  match extract_parameters O (d_table cfg) w r (rq_path req) with
  | None => Panicked (L "runtime error: slice bounds out of range") s
  | Some ps => run_chain (route_filters cfg w r) (handler_target cfg r)
                 (upd_attrs s [(K_sel, route_path w r); (K_params, of_params_log ps)])
  end.

Lemma dispatch_body_eq cfg req already s :
  dispatch_body O cfg req already s =
  if cond_panic_hit O cfg req then Panicked (L "cond") s else
  match select_route O (d_table cfg) req with
  | inr e => run_chain (d_cfilters cfg) (write_service_error e) s
  | inl (w, r) =>
      serve_route cfg w r req
        (install_wanted already (match r_enc r with Some b => b | None => d_encoding cfg end) req s)
  end.
Proof. reflexivity. Qed.

Lemma dispatch_eq cfg req already s :
  dispatch O cfg req already s = closing (recovering cfg (dispatch_body O cfg req already s)).
Proof. reflexivity. Qed.

(* no container filter: the chain is its target *)
Lemma handle_plain_eq cfg wf script req s :
  handle_plain cfg wf script req s =
  closing (run_chain (if wf then d_cfilters cfg else []) (run_actions script)
             (install_wanted (has_comp s) (d_encoding cfg) req s)).
Proof. unfold handle_plain. now destruct wf, (d_cfilters cfg). Qed.

Lemma serve_ServeHTTP_eq cfg req s :
  serve O cfg EServeHTTP req s =
  if d_encoding cfg
  then closing (mux_target O cfg req (has_comp (install_wanted false true req s)) (install_wanted false true req s))
  else mux_target O cfg req false s.
Proof. unfold serve. destruct (d_encoding cfg); reflexivity. Qed.

(* routed requests: the path is not one a plain handler is registered on (Handle / HandleWithFilter have no
   recovery by construction) *)
Definition routed_request (cfg : dcfg) (req : request) : Prop := assoc (rq_path req) (d_plain cfg) = None.

Lemma mux_target_routed cfg req already s :
  routed_request cfg req -> mux_target O cfg req already s = dispatch O cfg req already s.
Proof. unfold mux_target, routed_request. now intros ->. Qed.

End Stages.

Lemma zassoc_In {A} k (l : list (Z * A)) v : zassoc k l = Some v -> In (k, v) l.
Proof.
  induction l as [|[k' v'] l IH]; cbn; [discriminate|].
  destruct (Z.eqb_spec k k') as [->|N]; [intros [= ->]; now left | intros H; right; auto].
Qed.

Lemma handler_of_all (P : list action -> Prop) cfg r :
  P [] -> (forall x, In x (d_handlers cfg) -> P (snd x)) -> P (handler_of cfg r).
Proof.
  intros H0 H. unfold handler_of. destruct (zassoc (r_id r) (d_handlers cfg)) eqn:E; [|exact H0].
  exact (H _ (zassoc_In _ _ _ E)).
Qed.

(* what holds of every configured list of filters, and of l1 ++ l2 when of both, holds of every route's chain *)
Lemma route_filters_all (P : list fscript -> Prop) cfg w r :
  P [] -> (forall l1 l2, P l1 -> P l2 -> P (l1 ++ l2)) -> P (d_cfilters cfg) ->
  (forall x, In x (d_sfilters cfg) -> P (snd x)) -> (forall x, In x (d_rfilters cfg) -> P (snd x)) ->
  P (route_filters cfg w r).
Proof.
  intros H0 Happ Hc Hs Hr. apply Happ; [exact Hc|]. unfold sfilters_of, rfilters_of. apply Happ.
  - destruct (assoc _ _) eqn:E; [exact (Hs _ (assoc_In _ _ _ E))|exact H0].
  - destruct (zassoc _ _) eqn:E; [exact (Hr _ (zassoc_In _ _ _ E))|exact H0].
Qed.

(* what scripts cannot touch: the provider's ledger, the compressor's coding and closedness, the recover counter *)
Definition comp_shape (s : rstate) : option (coding * bool) :=
  match st_comp s with Some (c, _, cl) => Some (c, cl) | None => None end.
Definition book (s : rstate) : nat * nat * option (coding * bool) * nat :=
  (st_acq s, st_rel s, comp_shape s, st_recovered s).
(* [book] without the recover counter: what the recover handler keeps too *)
Definition ledger (s : rstate) : nat * nat * option (coding * bool) := (st_acq s, st_rel s, comp_shape s).

Lemma book_ledger s s' : book s = book s' -> ledger s = ledger s'.
Proof. unfold book, ledger. now intros [= -> -> -> _]. Qed.
Lemma book_recovered s s' : book s = book s' -> st_recovered s = st_recovered s'.
Proof. now intros [= _ _ _ ->]. Qed.

Lemma book_write_header s n : book (write_header s n) = book s.
Proof. now rewrite write_header_eq. Qed.

Lemma book_write_body s b : book (write_body s b) = book s.
Proof. rewrite write_body_eq. unfold book, comp_shape. cbn. now destruct (st_comp s) as [[[c ch] [|]]|]. Qed.

Lemma book_upd_hdr s h : book (upd_hdr s h) = book s. Proof. reflexivity. Qed.

Lemma book_run_action a s : book (state_of (run_action a s)) = book s.
Proof.
  destruct a; cbn; auto using book_write_header, book_write_body.
  now rewrite book_write_body, book_write_header.
Qed.

Lemma book_run_actions l s : book (state_of (run_actions l s)) = book s.
Proof.
  apply (inv_run_actions (fun x => book x = book s)); [|reflexivity]. intros a s0 _ <-. apply book_run_action.
Qed.

Lemma book_run_chain fs target s :
  (forall s0, book (state_of (target s0)) = book s0) ->
  book (state_of (run_chain fs target s)) = book s.
Proof.
  intros Ht. apply (inv_run_chain (fun x => book x = book s) (fun _ => True)); auto.
  - intros l s0 _ <-. apply book_run_actions.
  - intros s0 <-. apply Ht.
Qed.

(* C07 / C10: every compressor that is acquired is released exactly once, the stream is
   closed on every exit path, and at most one is installed per response *)
Section Discipline.
Variable O : oracles.

Lemma book_install c s :
  book (install c s) = (S (st_acq s), st_rel s, Some (c, false), st_recovered s).
Proof. reflexivity. Qed.

Lemma book_serve_route cfg w r req s : book (state_of (serve_route O cfg w r req s)) = book s.
Proof.
  unfold serve_route. destruct (extract_parameters O (d_table cfg) w r (rq_path req)); [|reflexivity].
  rewrite book_run_chain; [reflexivity|]. intros s0. exact (book_run_actions _ _).
Qed.

(* is content encoding enabled where dispatch may install a compressor: selection did not panic and found a route;
   the route's own setting goes over the container's *)
Definition dispatch_enabled (cfg : dcfg) (req : request) : bool :=
  if cond_panic_hit O cfg req then false else
  match select_route O (d_table cfg) req with
  | inl (_, r) => match r_enc r with Some b => b | None => d_encoding cfg end
  | inr _ => false
  end.

Lemma dispatch_enabled_true cfg req :
  dispatch_enabled cfg req = true ->
  exists w r, select_route O (d_table cfg) req = inl (w, r) /\
              match r_enc r with Some b => b | None => d_encoding cfg end = true.
Proof.
  unfold dispatch_enabled. destruct (cond_panic_hit O cfg req); [discriminate|].
  destruct (select_route O (d_table cfg) req) as [[w r]|e]; [eauto|discriminate].
Qed.

Lemma book_dispatch_body cfg req already s :
  book (state_of (dispatch_body O cfg req already s)) = book (install_wanted already (dispatch_enabled cfg req) req s).
Proof.
  rewrite dispatch_body_eq. unfold dispatch_enabled.
  destruct (cond_panic_hit O cfg req); [now rewrite install_wanted_off|].
  destruct (select_route O (d_table cfg) req) as [[w r]|e]; [apply book_serve_route|].
  rewrite install_wanted_off. apply book_run_chain. intros s0. rewrite write_service_error_eq. apply book_run_actions.
Qed.

Lemma ledger_recovering cfg r :
  ledger (state_of (recovering cfg r)) = ledger (state_of r) /\
  (st_recovered (state_of (recovering cfg r)) = st_recovered (state_of r) \/
   st_recovered (state_of (recovering cfg r)) = S (st_recovered (state_of r))).
Proof.
  destruct r as [s|m s]; cbn [recovering state_of]; [auto|]. destruct (d_recover cfg); [|auto].
  pose proof (book_run_actions (d_recover_script cfg) (recover_entry m s)) as H.
  split; [exact (book_ledger _ _ H)|]. right. exact (book_recovered _ _ H).
Qed.

(* what a deferred Close does to the ledger *)
Definition close_ledger (l : nat * nat * option (coding * bool)) : nat * nat * option (coding * bool) :=
  match l with (a, r, Some (c, false)) => (a, S r, Some (c, true)) | _ => l end.

Lemma ledger_close_comp s : ledger (close_comp s) = close_ledger (ledger s).
Proof. rewrite close_comp_eq. unfold ledger, comp_shape. cbn. now destruct (st_comp s) as [[[c ch] [|]]|]. Qed.
Lemma recovered_close_comp s : st_recovered (close_comp s) = st_recovered s.
Proof. now rewrite close_comp_eq. Qed.

Lemma ledger_dispatch cfg req already s :
  ledger (state_of (dispatch O cfg req already s)) =
  close_ledger (ledger (install_wanted already (dispatch_enabled cfg req) req s)).
Proof.
  rewrite dispatch_eq, state_of_closing, ledger_close_comp, (proj1 (ledger_recovering _ _)).
  f_equal. apply book_ledger, book_dispatch_body.
Qed.

Lemma recovered_dispatch cfg req already s :
  st_recovered (state_of (dispatch O cfg req already s)) = st_recovered s \/
  st_recovered (state_of (dispatch O cfg req already s)) = S (st_recovered s).
Proof.
  rewrite dispatch_eq, state_of_closing, recovered_close_comp.
  replace (st_recovered s) with (st_recovered (state_of (dispatch_body O cfg req already s)));
    [exact (proj2 (ledger_recovering _ _))|].
  rewrite (book_recovered _ _ (book_dispatch_body cfg req already s)).
  now apply (inv_install_wanted (fun x => st_recovered x = st_recovered s)).
Qed.

Definition balanced (s : rstate) : Prop :=
  st_acq s = st_rel s /\ (match comp_shape s with Some (_, cl) => cl = true | None => True end).

(* the ledger a request leaves that started from [s] without a compressor and installed one for [oc] *)
Definition request_ledger (oc : option coding) (s : rstate) : nat * nat * option (coding * bool) :=
  match oc with Some c => (S (st_acq s), S (st_rel s), Some (c, true)) | None => (st_acq s, st_rel s, None) end.

Lemma close_ledger_install_wanted enabled req s :
  comp_shape s = None ->
  close_ledger (ledger (install_wanted false enabled req s)) =
  request_ledger (if enabled then wants_compressed req s else None) s.
Proof.
  intros H. unfold install_wanted, ledger. destruct enabled; [destruct (wants_compressed req s)|]; cbn; now rewrite ?H.
Qed.
Lemma close_ledger_request_ledger oc s : close_ledger (request_ledger oc s) = request_ledger oc s.
Proof. now destruct oc. Qed.

(* the ledger equation read as the discipline: balanced, at most one acquired, and installed exactly when a coding
   was decided on *)
Lemma request_ledger_discipline oc s s' :
  st_acq s = st_rel s -> ledger s' = request_ledger oc s ->
  balanced s' /\ st_acq s' <= S (st_acq s) /\
  (comp_shape s' = None -> st_acq s' = st_acq s) /\
  (forall c cl, comp_shape s' = Some (c, cl) -> cl = true /\ st_acq s' = S (st_acq s) /\ oc = Some c).
Proof.
  unfold balanced, ledger, request_ledger. intros Hb H. destruct oc as [c|]; injection H as -> -> ->; rewrite Hb.
  - split; [now split|]. split; [apply le_n|]. split; [discriminate|]. now intros c0 cl [= <- <-].
  - split; [now split|]. split; [apply le_S, le_n|]. split; [reflexivity|discriminate].
Qed.

(* after dispatch: started with a clean ledger and no compressor, the books are balanced — for every outcome *)
Lemma dispatch_books cfg req s :
  st_acq s = st_rel s -> comp_shape s = None ->
  let r := dispatch O cfg req false s in
  balanced (state_of r) /\ st_acq (state_of r) <= S (st_acq s) /\
  (forall c cl, comp_shape (state_of r) = Some (c, cl) ->
       wants_compressed req s = Some c /\ st_acq (state_of r) = S (st_acq s)) /\
  (comp_shape (state_of r) = None -> st_acq (state_of r) = st_acq s).
Proof.
  intros Hb Hn r. pose proof (ledger_dispatch cfg req false s) as H. rewrite close_ledger_install_wanted in H by exact Hn.
  destruct (request_ledger_discipline _ _ _ Hb H) as (B & Le & N & Sm). split; [exact B|]. split; [exact Le|]. split; [|exact N].
  intros c cl Hc. destruct (Sm c cl Hc) as (_ & A & E). split; [|exact A].
  destruct (dispatch_enabled cfg req); [exact E|discriminate E].
Qed.

End Discipline.

Definition slog (s : rstate) : list str := filter structural_event (st_log s).

Lemma see_not_structural k v : structural_event (L "see:" ++ k ++ L "=" ++ v) = false.
Proof. reflexivity. Qed.

Lemma slog_write_header s n : slog (write_header s n) = slog s.
Proof. now rewrite write_header_eq. Qed.
Lemma slog_write_body s b : slog (write_body s b) = slog s.
Proof. now rewrite write_body_eq. Qed.
Lemma slog_upd_log s e : slog (upd_log s e) = slog s ++ (if structural_event e then [e] else []).
Proof. unfold slog. cbn [upd_log st_log]. rewrite filter_app. cbn [filter]. now destruct (structural_event e). Qed.
Lemma slog_upd_attrs s a : slog (upd_attrs s a) = slog s. Proof. reflexivity. Qed.

Lemma slog_run_action a s : slog (state_of (run_action a s)) = slog s.
Proof.
  destruct a; cbn [run_action state_of]; rewrite ?slog_write_body, ?slog_write_header; try reflexivity.
  rewrite slog_upd_log, see_not_structural. apply app_nil_r.
Qed.

Lemma slog_run_actions l s :
  panic_free l = true -> exists s', run_actions l s = Done s' /\ slog s' = slog s.
Proof.
  apply (run_actions_rel (fun _ s0 s' => slog s' = slog s0)); [reflexivity|]. intros a l0 s0 s' ->. apply slog_run_action.
Qed.

Lemma slog_enter f s : slog (enter f s) = slog s.
Proof. unfold enter. now destruct (f_fresh f), (f_wrap f). Qed.
Lemma slog_leave f s1 s2 : slog (leave f s1 s2) = slog s2.
Proof. unfold leave. now destruct (f_fresh f), (f_wrap f). Qed.
Lemma slog_finish f s :
  panic_free (f_post f) = true -> exists s', finish f s = Done s' /\ slog s' = slog s ++ [L "post:" ++ f_id f].
Proof.
  intros H. unfold finish. destruct (slog_run_actions (f_post f) s H) as (s3 & -> & <-).
  eexists. split; [reflexivity|]. apply slog_upd_log.
Qed.

(* C06, the chain: with scripts that do not panic, and a target that appends [tgt] to the
   structural log, the chain terminates normally and appends exactly chain_events *)
Theorem run_chain_events fs target tgt s :
  forallb fscript_panic_free fs = true ->
  (forall s0, exists s1, target s0 = Done s1 /\ slog s1 = slog s0 ++ tgt) ->
  exists s', run_chain fs target s = Done s' /\ slog s' = slog s ++ chain_events fs tgt.
Proof.
  intros Hpf Ht. revert s. induction fs as [|f rest IH]; intros s; [apply Ht|].
  cbn [forallb] in Hpf. apply andb_true_iff in Hpf as [Hf Hrest]. apply fscript_panic_free_parts in Hf as [Hpre Hpost].
  rewrite run_chain_cons. cbn [chain_events].
  destruct (slog_run_actions (f_pre f) (upd_log s (L "pre:" ++ f_id f)) Hpre) as (s1 & -> & L1). cbn [bind].
  rewrite slog_upd_log in L1. change (slog s1 = slog s ++ [L "pre:" ++ f_id f]) in L1.
  destruct (f_pass f).
  - destruct (IH Hrest (enter f s1)) as (s2 & -> & L2). cbn [bind].
    destruct (slog_finish f (leave f s1 s2) Hpost) as (s' & E & L3). exists s'. split; [exact E|].
    rewrite L3, slog_leave, L2, slog_enter, L1, <- !app_assoc. reflexivity.
  - destruct (slog_finish f s1 Hpost) as (s' & E & L3). exists s'. split; [exact E|].
    rewrite L3, L1, <- app_assoc. reflexivity.
Qed.

(* C10: with recovery on and a recover handler that does not panic itself, no panic escapes dispatch *)
Theorem dispatch_no_escape O cfg req already s :
  d_recover cfg = true -> panic_free (d_recover_script cfg) = true ->
  exists s', dispatch O cfg req already s = Done s'.
Proof.
  intros Hr Hp. rewrite dispatch_eq. destruct (dispatch_body O cfg req already s) as [s1|m s1]; cbn [recovering].
  - eexists; reflexivity.
  - rewrite Hr. destruct (slog_run_actions _ (recover_entry m s1) Hp) as (s2 & -> & _).
    eexists; reflexivity.
Qed.

(* ConcProofs.v — C12: threads whose paths pass [check_path] (all paths of a lock table that passes [lockset_ok], which is
   how genprops/C12_generated.v applies [lockset_sound] to the printed table) have no data race and no deadlock under any
   interleaving *)
From Model Require Import Conc.
From Coq Require Import List Arith Bool String.
Import ListNotations.

Lemma nth_error_set_nth {A} (l : list A) i j x :
  nth_error (set_nth i x l) j =
    if Nat.eqb i j then (match nth_error l i with Some _ => Some x | None => None end) else nth_error l j.
Proof.
  revert i j. induction l as [|y l IH]; intros i j; cbn.
  - destruct (Nat.eqb i j); destruct i, j; reflexivity.
  - destruct i, j; cbn; try reflexivity. apply IH.
Qed.

Definition after (h : held) (e : ev) : held :=
  match e with Acq l m => hset h l (Some m) | Rel l _ => hset h l None | _ => h end.
Definition allowed (ts : list thread) (i : nat) (e : ev) : bool :=
  match e with Acq l m => others_allow ts i l m | _ => true end.

Lemma cstep_eq ts i :
  cstep ts i = match nth_error ts i with
               | Some (h, e :: p) => if allowed ts i e then Some (set_nth i (after h e, p) ts) else None
               | _ => None
               end.
Proof. unfold cstep. now destruct (nth_error ts i) as [[h [|[] p]]|]. Qed.

Lemma cstep_some ts i ts' :
  cstep ts i = Some ts' ->
  exists h e p, nth_error ts i = Some (h, e :: p) /\ allowed ts i e = true /\
    forall j, nth_error ts' j = if Nat.eqb i j then Some (after h e, p) else nth_error ts j.
Proof.
  rewrite cstep_eq. destruct (nth_error ts i) as [[h [|e p]]|] eqn:Ei; try discriminate.
  destruct (allowed ts i e) eqn:Ea; [|discriminate]. intros [= <-].
  exists h, e, p. repeat split; [exact Ea|]. intros j. now rewrite nth_error_set_nth, Ei.
Qed.

Lemma crun_invariant (P : list thread -> Prop) :
  (forall ts i ts', P ts -> cstep ts i = Some ts' -> P ts') -> forall sched ts, P ts -> P (crun ts sched).
Proof.
  intros Hstep. induction sched as [|i rest IH]; intros ts H; cbn; [exact H|].
  destruct (cstep ts i) eqn:E; eauto.
Qed.

Definition init_threads (paths : list (list ev)) : list thread := map (fun p => (hempty, p)) paths.

Lemma init_threads_nth paths i t : nth_error (init_threads paths) i = Some t -> fst t = hempty /\ In (snd t) paths.
Proof.
  unfold init_threads. rewrite nth_error_map. destruct (nth_error paths i) as [p|] eqn:E; [|discriminate].
  intros [= <-]. eauto using nth_error_In.
Qed.

(* The semantics implements readers-writer locks, whatever the threads run:
   two threads that hold the same lock both hold it shared *)
Definition excl (ts : list thread) : Prop :=
  forall i j ti tj l mi mj, i <> j -> nth_error ts i = Some ti -> nth_error ts j = Some tj ->
    hget (fst ti) l = Some mi -> hget (fst tj) l = Some mj -> mi = R /\ mj = R.

Lemma hget_after h e l m : hget (after h e) l = Some m -> hget h l = Some m \/ e = Acq l m.
Proof.
  destruct e as [l0 m0|l0 m0| | |]; cbn; auto; destruct h as [a b], l0, l; cbn; auto.
  all: intros [= ->]; auto.
Qed.

(* [compat] from the side of the thread that holds [h]: a free lock is granted, a held one only shared and to a reader *)
Lemma compat_free h l m : hget h l = None -> compat h l m = true.
Proof. unfold compat. now intros ->. Qed.

Lemma compat_held h l m m' : hget h l = Some m' -> compat h l m = true -> m = R /\ m' = R.
Proof. unfold compat. intros ->. destruct m', m; (discriminate || now split). Qed.

Lemma others_allow_from_spec k ts i l m :
  others_allow_from k ts i l m = true ->
  forall j tj, nth_error ts j = Some tj -> k + j <> i -> compat (fst tj) l m = true.
Proof.
  revert k. induction ts as [|t ts IH]; intros k H j tj Hj Hne; [destruct j; discriminate|].
  cbn in H. apply andb_true_iff in H as [H1 H2]. destruct j as [|j]; cbn in Hj.
  - injection Hj as <-. apply orb_true_iff in H1 as [H1|H1]; [|exact H1].
    apply Nat.eqb_eq in H1. contradiction Hne. now rewrite Nat.add_0_r.
  - apply (IH (S k) H2 j tj Hj). now rewrite Nat.add_succ_r in Hne.
Qed.

Lemma others_allow_from_false k ts i l m :
  others_allow_from k ts i l m = false ->
  exists j tj, nth_error ts j = Some tj /\ k + j <> i /\ compat (fst tj) l m = false.
Proof.
  revert k. induction ts as [|t ts IH]; intros k H; [discriminate|]. cbn in H.
  apply andb_false_iff in H as [[H1 H2]%orb_false_iff|H].
  - exists 0, t. apply Nat.eqb_neq in H1. rewrite Nat.add_0_r. repeat split; [now apply not_eq_sym|exact H2].
  - destruct (IH (S k) H) as (j & tj & A & B & C). exists (S j), tj. rewrite Nat.add_succ_r. repeat split; assumption.
Qed.

Lemma others_allow_from_complete k ts i l m :
  (forall j tj, nth_error ts j = Some tj -> k + j <> i -> compat (fst tj) l m = true) ->
  others_allow_from k ts i l m = true.
Proof.
  intros H. destruct (others_allow_from k ts i l m) eqn:E; [reflexivity|].
  apply others_allow_from_false in E as (j & tj & Hj & Hne & Hc). now rewrite (H j tj Hj Hne) in Hc.
Qed.

Lemma cstep_excl ts i ts' : excl ts -> cstep ts i = Some ts' -> excl ts'.
Proof.
  intros Hex (h & e & p & Ei & Ea & Hnth)%cstep_some.
  (* the stepping thread against another one *)
  assert (K : forall j tj l m mj, i <> j -> nth_error ts j = Some tj ->
            hget (after h e) l = Some m -> hget (fst tj) l = Some mj -> m = R /\ mj = R).
  { intros j tj l m mj Hij Hj [Hm| ->]%hget_after Hmj.
    - exact (Hex i j _ tj l m mj Hij Ei Hj Hm Hmj).
    - exact (compat_held _ l m mj Hmj (others_allow_from_spec 0 ts i l m Ea j tj Hj (not_eq_sym Hij))). }
  intros a b ta tb l ma mb Hab. rewrite !Hnth.
  destruct (Nat.eqb_spec i a) as [<-|Ha], (Nat.eqb_spec i b) as [<-|Hb]; [contradiction| | |now apply Hex].
  - intros [= <-] Hb' H1 H2. exact (K b tb l ma mb Hb Hb' H1 H2).
  - intros Ha' [= <-] H1 H2. apply and_comm. exact (K a ta l mb ma Ha Ha' H2 H1).
Qed.

Lemma reachable_excl paths sched : excl (crun (init_threads paths) sched).
Proof.
  apply (crun_invariant excl cstep_excl). intros i j ti tj l mi mj _ [Hi _]%init_threads_nth. rewrite Hi. intros _ H. destruct l; discriminate H.
Qed.

(* What the check gives: every thread's remaining path passes it from the locks the thread holds *)
Definition paths_ok (ts : list thread) : Prop :=
  forall i t, nth_error ts i = Some t -> check_path (fst t) (snd t) = true.

Lemma check_path_after h e p : check_path h (e :: p) = true -> check_path (after h e) p = true.
Proof.
  destruct e as [l m|l m|x s|x s|s]; cbn.
  - destruct (hget h l); [discriminate|]. now intros [_ H]%andb_true_iff.
  - destruct (hget h l); [|discriminate]. now intros [_ H]%andb_true_iff.
  - destruct (hget h (guard x)); (discriminate || trivial).
  - destruct (hget h (guard x)) as [[|]|]; (discriminate || trivial).
  - destruct h as [[|] [|]]; (discriminate || trivial).
Qed.

Lemma cstep_paths_ok ts i ts' : paths_ok ts -> cstep ts i = Some ts' -> paths_ok ts'.
Proof.
  intros Hp (h & e & p & Ei & _ & Hnth)%cstep_some a ta. rewrite Hnth. destruct (Nat.eqb i a); [|apply Hp].
  intros [= <-]. apply check_path_after, (Hp i _ Ei).
Qed.

Lemma reachable_paths_ok paths sched :
  forallb (check_path hempty) paths = true -> paths_ok (crun (init_threads paths) sched).
Proof.
  intros H. apply (crun_invariant paths_ok cstep_paths_ok). intros i t [Hh Hin]%init_threads_nth. rewrite Hh.
  exact (proj1 (forallb_forall _ _) H _ Hin).
Qed.

Lemma loc_eqb_eq x y : loc_eqb x y = true -> x = y.
Proof. destruct x, y; (reflexivity || discriminate). Qed.

Lemma no_conflict ts i j hi a pi hj b pj :
  excl ts -> paths_ok ts -> i <> j -> nth_error ts i = Some (hi, a :: pi) -> nth_error ts j = Some (hj, b :: pj) ->
  conflicting a b = false.
Proof.
  intros He Hp Hij Hi Hj. pose proof (Hp i _ Hi) as Ci. pose proof (Hp j _ Hj) as Cj. cbn [fst snd] in Ci, Cj.
  destruct (conflicting a b) eqn:E; [exfalso|reflexivity].
  (* both hold the guard of the location, one of them exclusively *)
  destruct a as [| |x s|x s|s]; try discriminate E; destruct b as [| |y s'|y s'|s']; try discriminate E;
    apply loc_eqb_eq in E as <-; cbn [check_path] in Ci, Cj.
  all: destruct (hget hi (guard x)) as [mi|] eqn:Ei; [|discriminate Ci].
  all: destruct (hget hj (guard x)) as [mj|] eqn:Ej; [|discriminate Cj].
  all: destruct (He i j _ _ (guard x) mi mj Hij Hi Hj Ei Ej) as [-> ->]; discriminate.
Qed.

Lemma next_ev_some t e : next_ev t = Some e -> exists h p, t = (h, e :: p).
Proof. destruct t as [h [|e' p]]; [discriminate|]. intros [= ->]. eauto. Qed.

Theorem lockset_sound (paths : list (list ev)) (sched : list nat) i j ti tj a b :
  forallb (check_path hempty) paths = true ->
  let ts := crun (init_threads paths) sched in
  i <> j -> nth_error ts i = Some ti -> nth_error ts j = Some tj ->
  next_ev ti = Some a -> next_ev tj = Some b -> conflicting a b = false.
Proof.
  intros H ts Hij Hi Hj (hi & pi & ->)%next_ev_some (hj & pj & ->)%next_ev_some.
  exact (no_conflict _ i j _ _ _ _ _ _ (reachable_excl paths sched) (reachable_paths_ok paths sched H) Hij Hi Hj).
Qed.

Lemma moves_or_waits ts i h e p :
  nth_error ts i = Some (h, e :: p) ->
  (exists ts', cstep ts i = Some ts') \/
  exists l m j tj, e = Acq l m /\ nth_error ts j = Some tj /\ hget (fst tj) l <> None.
Proof.
  intros Hi. rewrite cstep_eq, Hi. destruct (allowed ts i e) eqn:Ea; [eauto|right].
  destruct e as [l m| | | |]; try discriminate Ea.
  destruct (others_allow_from_false 0 ts i l m Ea) as (j & tj & Hj & _ & C).
  exists l, m, j, tj. repeat split; [exact Hj|]. intros E. rewrite (compat_free _ l m E) in C. discriminate C.
Qed.

(* lock order on a checked path: a thread that holds a lock has an event left, and if that event is an acquisition
   then the lock held is WS and the one asked for is RT *)
Lemma holder_next h p l :
  check_path h p = true -> hget h l <> None ->
  exists e p', p = e :: p' /\ forall l' m', e = Acq l' m' -> l = WS /\ l' = RT.
Proof.
  intros C Hh. destruct p as [|e p'].
  - cbn in C. destruct h as [[|] [|]]; try discriminate C. destruct l; now contradiction Hh.
  - exists e, p'. split; [reflexivity|]. intros l' m' ->. cbn [check_path] in C.
    destruct (hget h l') eqn:E; [discriminate C|].
    destruct l, l'; [contradiction (Hh E)|now split| |contradiction (Hh E)].
    destruct (hget h RT); [discriminate C|now contradiction Hh].
Qed.

Theorem no_deadlock ts :
  paths_ok ts ->
  (exists i t, nth_error ts i = Some t /\ snd t <> []) ->
  exists i ts', cstep ts i = Some ts'.
Proof.
  intros Hp (i & [h [|e p]] & Hi & Hu); [easy|].
  (* who waits for whom: i for a holder j of some lock, j (then holding WS) for a holder j' of RT, j' for nobody *)
  destruct (moves_or_waits ts i h e p Hi) as [[ts' H]|(l & m & j & [hj pj] & _ & Hj & Hh)]; [eauto|].
  destruct (holder_next hj pj l (Hp j _ Hj) Hh) as (e1 & p1 & -> & Ho).
  destruct (moves_or_waits ts j hj e1 p1 Hj) as [[ts' H]|(l1 & m1 & j' & [hj' pj'] & -> & Hj' & Hh')]; [eauto|].
  destruct (Ho l1 m1 eq_refl) as [_ ->].
  destruct (holder_next hj' pj' RT (Hp j' _ Hj') Hh') as (e2 & p2 & -> & Ho').
  destruct (moves_or_waits ts j' hj' e2 p2 Hj') as [[ts' H]|(l2 & m2 & _ & _ & -> & _)]; [eauto|].
  now destruct (Ho' l2 m2 eq_refl).
Qed.

Theorem user_code_unlocked (paths : list (list ev)) (sched : list nat) i h s p :
  forallb (check_path hempty) paths = true ->
  nth_error (crun (init_threads paths) sched) i = Some (h, User s :: p) -> h = hempty.
Proof.
  intros H Hi. pose proof (reachable_paths_ok paths sched H i _ Hi) as C. cbn in C. now destruct h as [[|] [|]].
Qed.

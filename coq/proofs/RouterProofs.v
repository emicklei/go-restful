(* RouterProofs.v — detectRoute, SelectRoute and the routing part of dispatch as equations; CurlyRouter's candidates, with
   C01 for CurlyRouter read off them; at the end C14 for CurlyRouter: routing reads the path through tokenize only *)
From Model Require Import Str Http Template Table Curly DetectRoute Jsr311 Router.
From Spec Require Import RouteSpec.
From Proofs Require Import StrFacts SortFacts CurlyProofs RankProofs.

Lemma dedup_In l seen m : In m (dedup l seen) <-> In m l /\ ~ In m seen.
Proof.
  revert seen; induction l as [|x l IH]; intros seen; cbn [dedup In]; [tauto|].
  destruct (mem x seen) eqn:E.
  - rewrite IH. apply mem_In in E. split; [tauto|]. intros [[->|H] Hn]; [contradiction|tauto].
  - apply mem_false in E. cbn [In]. rewrite IH. cbn [In]. split.
    + intros [->|[H Hn]]; [tauto|]. split; [tauto|]. intros Hs. apply Hn. now right.
    + intros [[->|H] Hn]; [now left|]. destruct (str_eqb_spec x m) as [->|Hne]; [now left|].
      right. split; [exact H|]. intros [Hx|Hs]; [congruence|contradiction].
Qed.

(* the first route that passes the four filters; when there is none, the error tells how far they got *)
Lemma detect_route_eq routes req :
  let R0 := filter conds_hold routes in
  let R1 := filter (fun r => str_eqb (rq_method req) (r_method r)) R0 in
  let R2 := filter (fun r => matches_content_type r (hget req H_ContentType)) R1 in
  let R3 := filter (fun r => matches_accept r (effective_accept req)) R2 in
  detect_route routes req =
    match R3 with
    | r :: _ => inl r
    | [] =>
        inr match R0, R1 with
            | [], _ => E404
            | _, [] => E405 (dedup (map r_method R0) [])
            | _, _ =>
                let m := rq_method req in
                let len := hget req H_ContentLength in
                let bodiless_write := (str_eqb m (L "POST") || str_eqb m (L "PUT") || str_eqb m (L "PATCH"))
                                      && (str_eqb len [] || str_eqb len (L "0")) in
                if (match R2 with [] => Z.ltb 0 (rq_clen req) | _ => false end) || bodiless_write then E415 else E406
            end
    end.
Proof.
  cbv zeta. unfold detect_route, conds_hold, effective_accept.
  destruct (filter _ routes) as [|a0 c0]; [reflexivity|].
  destruct (filter _ (a0 :: c0)) as [|a1 c1]; [reflexivity|].
  destruct (filter _ (a1 :: c1)) as [|a2 c2]; [cbn [filter]; now destruct (Z.ltb 0 (rq_clen req)), (_ && _)|].
  destruct (filter _ (a2 :: c2)); [now destruct (_ && _)|reflexivity].
Qed.

Lemma detect_route_spec routes req :
  match find (fun r => conds_hold r && str_eqb (rq_method req) (r_method r)
                       && matches_content_type r (hget req H_ContentType)
                       && matches_accept r (effective_accept req)) routes with
  | Some r => detect_route routes req = inl r
  | None => exists e, detect_route routes req = inr e
  end.
Proof.
  rewrite find_filter_head, detect_route_eq. cbv zeta. rewrite <- !filter_filter.
  destruct (filter _ (filter _ (filter _ (filter _ routes)))); eauto.
Qed.

Lemma detect_route_inl routes req r :
  detect_route routes req = inl r ->
  In r routes /\ conds_hold r = true
  /\ str_eqb (rq_method req) (r_method r) = true
  /\ matches_content_type r (hget req H_ContentType) = true
  /\ matches_accept r (effective_accept req) = true.
Proof.
  intros H. pose proof (detect_route_spec routes req) as S.
  destruct (find _ routes) as [r0|] eqn:E; [|destruct S as [e S]; congruence].
  apply find_some in E as [Hin Hp]. replace r with r0 by congruence.
  apply andb_true_iff in Hp as [Hp Ha]. apply andb_true_iff in Hp as [Hp Hct].
  apply andb_true_iff in Hp as [Hc Hm]. auto.
Qed.

Section P.
Variable O : oracles.

(* the empty candidate list needs no case of its own: detectRoute answers 404 on it *)
Lemma select_route_eq t req :
  select_route O t req =
    match t_router t with
    | Curly =>
        match detect_web_service O (tokenize (rq_path req)) (t_services t) with
        | None => inr E404
        | Some w =>
          match detect_route (map cc_route (curly_select_routes O w (tokenize (rq_path req)))) req with
          | inl r => inl (w, r)
          | inr e => inr e
          end
        end
    | Jsr311 =>
        match detect_dispatcher O (rq_path req) (t_services t) with
        | None => inr E404
        | Some (w, fin) =>
          match detect_route (map rc_route (jsr_select_routes O w fin)) req with
          | inl r => inl (w, r)
          | inr e => inr e
          end
        end
    end.
Proof.
  unfold select_route. destruct (t_router t).
  - destruct (detect_web_service O _ _) as [w|]; [|reflexivity]. now destruct (curly_select_routes O w _).
  - destruct (detect_dispatcher O _ _) as [[w fin]|]; [|reflexivity]. now destruct (jsr_select_routes O w fin).
Qed.

Lemma select_route_inl t req w r :
  select_route O t req = inl (w, r) ->
  match t_router t with
  | Curly => detect_web_service O (tokenize (rq_path req)) (t_services t) = Some w /\
             detect_route (map cc_route (curly_select_routes O w (tokenize (rq_path req)))) req = inl r
  | Jsr311 => exists fin, detect_dispatcher O (rq_path req) (t_services t) = Some (w, fin) /\
             detect_route (map rc_route (jsr_select_routes O w fin)) req = inl r
  end.
Proof.
  rewrite select_route_eq. destruct (t_router t).
  - destruct (detect_web_service O _ _) as [w0|]; [|discriminate].
    destruct (detect_route _ req) eqn:E; [|discriminate]. intros [= -> ->]. auto.
  - destruct (detect_dispatcher O _ _) as [[w0 fin]|]; [|discriminate].
    destruct (detect_route _ req) eqn:E; [|discriminate]. intros [= -> ->]. eauto.
Qed.

(* both routers: a service and its ordered candidates from the path alone, then detectRoute *)
Definition candidates (t : table) (path : str) : option (service * list route) :=
  match t_router t with
  | Curly =>
      match detect_web_service O (tokenize path) (t_services t) with
      | Some w => Some (w, map cc_route (curly_select_routes O w (tokenize path)))
      | None => None
      end
  | Jsr311 =>
      match detect_dispatcher O path (t_services t) with
      | Some (w, fin) => Some (w, map rc_route (jsr_select_routes O w fin))
      | None => None
      end
  end.

Lemma select_route_candidates t req :
  select_route O t req =
  match candidates t (rq_path req) with
  | None => inr E404
  | Some (w, l) => match detect_route l req with inl r => inl (w, r) | inr e => inr e end
  end.
Proof.
  rewrite select_route_eq. unfold candidates.
  destruct (t_router t); [now destruct (detect_web_service O _ _)|now destruct (detect_dispatcher O _ _) as [[w fin]|]].
Qed.

Lemma route_request_invoke t req w r ps :
  route_request O t req = RInvoke w r ps <->
  select_route O t req = inl (w, r) /\ extract_parameters O t w r (rq_path req) = Some ps.
Proof.
  unfold route_request. split.
  - destruct (select_route O t req) as [[w0 r0]|e]; [|discriminate].
    destruct (extract_parameters O t w0 r0 (rq_path req)) eqn:E; [|discriminate]. intros [= -> -> ->]. auto.
  - intros [-> ->]. reflexivity.
Qed.

(* the candidate CurlyRouter builds for a route; for a well-formed route its keys are read off the template *)
Definition cand_of (w : service) (qts : list str) (r : route) : list curly_cand :=
  match matches_route_by_path_tokens O (route_parts w r) qts (route_hcv w r) with
  | Some (pc, sc) => [{| cc_route := r; cc_param := pc; cc_static := sc; cc_path := route_path w r |}]
  | None => []
  end.
Definition ccand (w : service) (r : route) : curly_cand :=
  {| cc_route := r; cc_param := n_params (route_tpl w r); cc_static := n_statics (route_tpl w r);
     cc_path := route_path w r |}.

Lemma cand_of_wf w qts r :
  wf_route w r = true -> cand_of w qts r = if admits_path O (route_tpl w r) qts then [ccand w r] else [].
Proof.
  intros Hwf. unfold cand_of. rewrite (matches_route_spec O _ _ qts Hwf). fold (route_tpl w r).
  now destruct (admits_path O (route_tpl w r) qts).
Qed.

Lemma cand_of_single w qts r c :
  In c (cand_of w qts r) -> cand_of w qts r = [c] /\ cc_route c = r /\ cc_path c = route_path w r.
Proof.
  unfold cand_of. destruct (matches_route_by_path_tokens O (route_parts w r) qts (route_hcv w r)) as [[pc sc]|]; [|contradiction].
  intros [<-|[]]. auto.
Qed.

Lemma cand_of_root w w' qts r : s_root w = s_root w' -> cand_of w qts r = cand_of w' qts r.
Proof. intros H. unfold cand_of, route_parts, route_hcv, route_path. now rewrite H. Qed.

Lemma curly_select_routes_In w qts c :
  In c (curly_select_routes O w qts) <-> exists r, In r (s_routes w) /\ In c (cand_of w qts r).
Proof. unfold curly_select_routes. rewrite sort_desc_In. apply in_flat_map. Qed.

(* C01, CurlyRouter: the route SelectRoute answers is registered and, if its template is of the documented forms,
   admits the request (RouterJSR311: JsrProofs.jsr_select_route_sound) *)
Theorem curly_select_route_sound t req w r :
  t_router t = Curly -> select_route O t req = inl (w, r) ->
  In w (t_services t) /\ In r (s_routes w) /\ (wf_route w r = true -> admits O w r req = true).
Proof.
  intros Ht H. apply select_route_inl in H. rewrite Ht in H. destruct H as [Ew Ed].
  apply detect_route_inl in Ed as (Hin & Hc & Hme & Hct & Ha).
  apply in_map_iff in Hin as (c & <- & Hin). apply curly_select_routes_In in Hin as (r & Hr & Hin).
  destruct (cand_of_single _ _ _ _ Hin) as (_ & E & _). rewrite E in *.
  split; [now apply detect_web_service_max in Ew|]. split; [exact Hr|]. intros Hwf.
  rewrite (cand_of_wf _ _ _ Hwf) in Hin. unfold admits. rewrite Hme, Hct, Ha, Hc.
  destruct (admits_path O (route_tpl w r) _); [reflexivity|contradiction].
Qed.

Theorem curly_invoked_admits t req w r ps :
  t_router t = Curly ->
  route_request O t req = RInvoke w r ps ->
  In w (t_services t) /\ In r (s_routes w) /\
  (wf_route w r = true -> admits O w r req = true).
Proof. intros Ht [Es _]%route_request_invoke. exact (curly_select_route_sound t req w r Ht Es). Qed.

End P.

Definition with_path (req : request) (p : str) : request :=
  {| rq_method := rq_method req; rq_path := p; rq_headers := rq_headers req; rq_clen := rq_clen req |}.

Lemma detect_route_with_path routes req p :
  detect_route routes (with_path req p) = detect_route routes req.
Proof. reflexivity. Qed.

Lemma curly_route_request_tokens O t req p q :
  t_router t = Curly -> tokenize p = tokenize q ->
  route_request O t (with_path req p) = route_request O t (with_path req q).
Proof.
  intros Ht Hpq. unfold route_request, extract_parameters, curly_extract_parameters. rewrite !select_route_eq, Ht.
  change (rq_path (with_path req p)) with p. change (rq_path (with_path req q)) with q.
  (* the path is now read through tokenize only; detectRoute does not read it (detect_route_with_path) *)
  now rewrite Hpq.
Qed.

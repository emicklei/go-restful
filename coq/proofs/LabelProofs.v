(* LabelProofs.v — C07, the label: when a response leaves with a compressor installed, its Content-Encoding header is exactly that
   coding's name; when none is installed the header is what the writer carried on arrival (the container adds none).
   For every configuration whose scripts leave the Content-Encoding header alone. *)
From Model Require Import Str Http Router Dispatch.
From Proofs Require Import StrFacts DispatchProofs.

Definition ce (s : rstate) : list str := hvalues H_ContentEncoding (st_hdr s).

(* [ce0]: the header values on arrival *)
Definition labelled (ce0 : list str) (s : rstate) : Prop :=
  match st_comp s with
  | Some (c, _, _) => ce s = [coding_name c]
  | None => ce s = ce0
  end.

(* scripts that leave the Content-Encoding header alone *)
Definition action_touches_ce (a : action) : bool :=
  match a with
  | AHeader k _ => str_eqb k H_ContentEncoding
  | ADelHeader k => str_eqb k H_ContentEncoding
  | _ => false
  end.
Definition script_keeps_ce (l : list action) : bool := negb (existsb action_touches_ce l).
Definition fscript_keeps_ce (f : fscript) : bool := script_keeps_ce (f_pre f) && script_keeps_ce (f_post f).
Definition cfg_keeps_ce (cfg : dcfg) : bool :=
  forallb fscript_keeps_ce (d_cfilters cfg)
  && forallb (fun x => forallb fscript_keeps_ce (snd x)) (d_sfilters cfg)
  && forallb (fun x => forallb fscript_keeps_ce (snd x)) (d_rfilters cfg)
  && forallb (fun x => script_keeps_ce (snd x)) (d_handlers cfg)
  && script_keeps_ce (d_recover_script cfg)
  && forallb (fun x => script_keeps_ce (snd (snd x))) (d_plain cfg).

Lemma hvalues_app k h1 h2 : hvalues k (h1 ++ h2) = hvalues k h1 ++ hvalues k h2.
Proof.
  induction h1 as [|[k' v] h1 IH]; cbn; [reflexivity|]. destruct (str_eqb k k'); cbn; now rewrite IH.
Qed.

Lemma hvalues_hadd_other k h k' v : str_eqb k' k = false -> hvalues k (hadd h k' v) = hvalues k h.
Proof. intros H. unfold hadd. rewrite hvalues_app. cbn. rewrite str_eqb_sym, H. apply app_nil_r. Qed.

(* Header().Del(k') *)
Lemma hvalues_filter k h k' :
  hvalues k (filter (fun kv => negb (str_eqb (fst kv) k')) h) = if str_eqb k' k then [] else hvalues k h.
Proof.
  induction h as [|[k2 v] h IH]; cbn; [now destruct (str_eqb k' k)|].
  destruct (str_eqb_spec k2 k') as [E|N]; cbn; rewrite IH.
  - subst k2. rewrite (str_eqb_sym k k'). now destruct (str_eqb k' k).
  - destruct (str_eqb_spec k' k) as [E|]; [subst k'|reflexivity]. now destruct (str_eqb_spec k k2); [congruence|].
Qed.

Lemma hvalues_hset k h v : hvalues k (hset h k v) = [v].
Proof. unfold hset. rewrite hvalues_app, hvalues_filter. cbn. now rewrite str_eqb_refl. Qed.

Lemma lab_start s : st_comp s = None -> labelled (ce s) s.
Proof. unfold labelled. now intros ->. Qed.

Lemma lab_write_header ce0 s n : labelled ce0 s -> labelled ce0 (write_header s n).
Proof. now rewrite write_header_eq. Qed.

Lemma lab_write_body ce0 s b : labelled ce0 s -> labelled ce0 (write_body s b).
Proof. rewrite write_body_eq. unfold labelled. cbn [with_writer st_comp]. now destruct (st_comp s) as [[[c ch] [|]]|]. Qed.

Lemma lab_upd_log ce0 s e : labelled ce0 s -> labelled ce0 (upd_log s e).
Proof. auto. Qed.
Lemma lab_upd_attrs ce0 s a : labelled ce0 s -> labelled ce0 (upd_attrs s a).
Proof. auto. Qed.
Lemma lab_upd_hdr ce0 s h :
  hvalues H_ContentEncoding h = hvalues H_ContentEncoding (st_hdr s) -> labelled ce0 s -> labelled ce0 (upd_hdr s h).
Proof. unfold labelled, ce. cbn [upd_hdr st_comp st_hdr]. now intros ->. Qed.

Lemma lab_install ce0 c s : labelled ce0 (install c s).
Proof. apply hvalues_hset. Qed.

Lemma lab_close_comp ce0 s : labelled ce0 s -> labelled ce0 (close_comp s).
Proof. rewrite close_comp_eq. unfold labelled. cbn [with_writer st_comp]. now destruct (st_comp s) as [[[c ch] [|]]|]. Qed.

Lemma lab_run_action ce0 a s :
  action_touches_ce a = false -> labelled ce0 s -> labelled ce0 (state_of (run_action a s)).
Proof.
  destruct a; cbn [run_action state_of action_touches_ce]; intros Ht Hl; auto using lab_write_header, lab_write_body.
  - apply lab_upd_hdr; [now apply hvalues_hadd_other|exact Hl].
  - apply lab_upd_hdr; [now rewrite hvalues_filter, Ht|exact Hl].
Qed.

Lemma lab_install_wanted ce0 already enabled req s :
  labelled ce0 s -> labelled ce0 (install_wanted already enabled req s).
Proof. intros Hl. apply inv_install_wanted; [exact Hl|intros c; apply lab_install]. Qed.

Lemma lab_run_actions ce0 l s :
  script_keeps_ce l = true -> labelled ce0 s -> labelled ce0 (state_of (run_actions l s)).
Proof.
  intros H. apply negb_true_iff in H. apply inv_run_actions. intros a s0 Hin.
  apply lab_run_action. exact (existsb_false_In _ _ H a Hin).
Qed.

Lemma lab_run_chain ce0 fs target s :
  forallb fscript_keeps_ce fs = true ->
  (forall s0, labelled ce0 s0 -> labelled ce0 (state_of (target s0))) ->
  labelled ce0 s -> labelled ce0 (state_of (run_chain fs target s)).
Proof.
  intros Hf Ht. apply (inv_run_chain (labelled ce0) (fun l => script_keeps_ce l = true)); auto.
  - apply lab_run_actions.
  - intros f Hin. apply andb_true_iff. exact (proj1 (forallb_forall _ _) Hf f Hin).
Qed.

Section WithOracles.
Variable O : oracles.

Lemma lab_write_service_error ce0 e s : labelled ce0 s -> labelled ce0 (state_of (write_service_error e s)).
Proof. rewrite write_service_error_eq. apply lab_run_actions. now destruct e. Qed.

Lemma cfg_keeps_parts cfg :
  cfg_keeps_ce cfg = true ->
  forallb fscript_keeps_ce (d_cfilters cfg) = true /\
  (forall w r, forallb fscript_keeps_ce (route_filters cfg w r) = true /\ script_keeps_ce (handler_of cfg r) = true) /\
  script_keeps_ce (d_recover_script cfg) = true /\
  forall x, In x (d_plain cfg) -> script_keeps_ce (snd (snd x)) = true.
Proof.
  unfold cfg_keeps_ce. intros H. apply andb_prop in H as [H Hpl]. apply andb_prop in H as [H Hrec].
  apply andb_prop in H as [H Hh]. apply andb_prop in H as [H Hr]. apply andb_prop in H as [Hc Hs].
  rewrite forallb_forall in Hs, Hr, Hh, Hpl. repeat split; auto.
  - apply (route_filters_all (fun l => forallb fscript_keeps_ce l = true)); auto.
    intros l1 l2 H1 H2. now rewrite forallb_app, H1, H2.
  - now apply (handler_of_all (fun l => script_keeps_ce l = true)).
Qed.

Lemma lab_dispatch ce0 cfg req already s :
  cfg_keeps_ce cfg = true -> labelled ce0 s -> labelled ce0 (state_of (dispatch O cfg req already s)).
Proof.
  intros Hk Hl. destruct (cfg_keeps_parts cfg Hk) as (Hc & Hwr & Hrec & _).
  rewrite dispatch_eq, state_of_closing. apply lab_close_comp, inv_recovering.
  { intros m s0 H0. now apply lab_run_actions. }
  rewrite dispatch_body_eq. destruct (cond_panic_hit O cfg req); [exact Hl|].
  destruct (select_route O (d_table cfg) req) as [[w r]|e].
  - destruct (Hwr w r) as [Hfs Hh]. unfold serve_route.
    destruct (extract_parameters O (d_table cfg) w r (rq_path req)); [|now apply lab_install_wanted].
    apply lab_run_chain; [exact Hfs| |now apply lab_install_wanted]. intros s0 H0. now apply lab_run_actions.
  - apply lab_run_chain; [exact Hc| |exact Hl]. apply lab_write_service_error.
Qed.

Lemma lab_mux_target ce0 cfg req already s :
  cfg_keeps_ce cfg = true -> labelled ce0 s -> labelled ce0 (state_of (mux_target O cfg req already s)).
Proof.
  intros Hk Hl. unfold mux_target.
  destruct (assoc (rq_path req) (d_plain cfg)) as [[wf script]|] eqn:E; [|now apply lab_dispatch].
  destruct (cfg_keeps_parts cfg Hk) as (Hc & _ & _ & Hpl). pose proof (Hpl _ (assoc_In _ _ _ E)) as Hs.
  rewrite handle_plain_eq, state_of_closing. apply lab_close_comp, lab_run_chain.
  - now destruct wf.
  - intros s0. now apply lab_run_actions.
  - now apply lab_install_wanted.
Qed.

Theorem serve_label ce0 cfg en req s :
  cfg_keeps_ce cfg = true -> labelled ce0 s -> labelled ce0 (state_of (serve O cfg en req s)).
Proof.
  intros Hk Hl. destruct en; [now apply lab_dispatch|]. rewrite serve_ServeHTTP_eq.
  destruct (d_encoding cfg); [|now apply lab_mux_target].
  rewrite state_of_closing. now apply lab_close_comp, lab_mux_target, lab_install_wanted.
Qed.

End WithOracles.

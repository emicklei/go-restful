(* EntityProofs.v — C16: how a written body is encoded under a Content-Encoding label ([encode_body]), and what the
   stages of ReadEntity (request.go:75) make of it *)
From Model Require Import Str Entity.

Section Entity.
Variable gzip deflate : str -> str.

Definition encode_body (ce : str) (b : str) : str :=
  if str_eqb ce (L "gzip") then gzip b else if str_eqb ce (L "deflate") then deflate b else b.

End Entity.

Section ReadEntity.
Variable V : Type.
Variable decode : codec -> str -> option V.
Variable gunzip inflate : str -> option str.
Variable inflate_open : str -> bool.

Lemma entity_result_not_panicked lookup bytes early : entity_result V decode lookup bytes early <> RPanicked.
Proof.
  unfold entity_result. destruct early, lookup as [c|], bytes as [b|]; try discriminate. destruct (decode c b); discriminate.
Qed.

(* once the Content-Type resolves to a codec and the decompressor delivers bytes, the result is the codec's:
   the early exit (zlib.NewReader refusing the header) is a case in which the decompressor delivers nothing *)
Lemma read_entity_decodes reg dflt ct ce body pooled pick c b :
  pick (accessor_at reg ct) = Some c ->
  entity_bytes gunzip inflate inflate_open ce body pooled = Some b ->
  fst (read_entity V decode gunzip inflate inflate_open reg dflt ct ce body pooled pick)
  = match decode c b with Some v => ROk v | None => RErr 0 end.
Proof.
  intros Hp Hb. unfold read_entity, entity_lookup. cbn [fst]. rewrite Hp, Hb. unfold entity_bytes in Hb.
  destruct (str_eqb ce (L "gzip")); [now rewrite andb_false_r|]. destruct (str_eqb ce (L "deflate")); [|reflexivity].
  now destruct (inflate_open body).
Qed.

(* the decompressor that the label selects undoes [encode_body], whatever the pooled reader held *)
Lemma entity_bytes_encode_body (gzip deflate : str -> str) ce b pooled :
  (forall b, gunzip (gzip b) = Some b) ->
  (forall b, inflate (deflate b) = Some b /\ inflate_open (deflate b) = true) ->
  entity_bytes gunzip inflate inflate_open ce (encode_body gzip deflate ce b) pooled = Some b.
Proof.
  intros gunzip_gzip inflate_deflate. unfold entity_bytes, encode_body.
  destruct (str_eqb ce (L "gzip")); [unfold gz_read_all; cbn; now rewrite gunzip_gzip|].
  destruct (str_eqb ce (L "deflate")); [|reflexivity]. now destruct (inflate_deflate b) as [-> ->].
Qed.

End ReadEntity.

(* ResponseProofs.v — C15: status and length bookkeeping of Response ([st_inv], [len_inv], kept by every call), and every
   write the underlying writer refused is reported to the caller ([counted], step_error_reported) *)
From Model Require Import Str Response.
From Coq Require Import Lia.

(* the status the client sees: what WriteHeader received, 200 when nothing did *)
Definition uw_seen (u : uw) : Z := match u_status u with Some n => n | None => 200%Z end.

(* contentLength = bytes accepted (by the compressor, or by the writer) *)
Definition len_inv (r : resp) : Prop :=
  p_clen r = (Z.of_N (p_cbytes r) + Z.of_N (u_bytes (p_u r)))%Z /\
  (if p_comp r then u_bytes (p_u r) = 0%N else p_cbytes r = 0%N).

Lemma len_inv_content_length r :
  len_inv r -> content_length r = Z.of_N (if p_comp r then p_cbytes r else u_bytes (p_u r)).
Proof. unfold content_length. intros [-> H]. destruct (p_comp r); rewrite H; [apply Z.add_0_r|reflexivity]. Qed.

Lemma len_init script comp pretty : len_inv (resp_init script comp pretty).
Proof. split; [reflexivity|now destruct comp]. Qed.

Lemma uw_header_eq u n :
  uw_header u n = {| u_status := Some (match u_status u with Some m => m | None => n end);
                     u_bytes := u_bytes u; u_script := u_script u; u_fails := u_fails u |}.
Proof. unfold uw_header. now destruct u as [[m|] nb sc f]. Qed.

(* the writer after a Write call: a status is committed, what was accepted is added, the call is counted if it failed *)
Lemma uw_write_eq u b :
  fst (fst (uw_write u b)) =
  {| u_status := Some (uw_seen u); u_bytes := u_bytes u + snd (fst (uw_write u b)); u_script := tl (u_script u);
     u_fails := if snd (uw_write u b) then S (u_fails u) else u_fails u |}.
Proof. unfold uw_write, uw_seen. rewrite uw_header_eq. cbn [u_status u_bytes u_script u_fails]. now destruct (u_script u) as [|[a e] rest]. Qed.

(* Write changes contentLength, the compressor's count and the underlying writer, nothing else *)
Lemma resp_write_eq r b :
  let n := N.of_nat (length b) in
  let x := uw_write (p_u r) b in
  resp_write r b =
  ({| p_code := p_code r; p_clen := p_clen r + Z.of_N (if p_comp r then n else snd (fst x));
      p_pretty := p_pretty r; p_comp := p_comp r;
      p_cbytes := if p_comp r then p_cbytes r + n else p_cbytes r;
      p_u := if p_comp r then uw_header (p_u r) 200 else fst (fst x) |},
   if p_comp r then false else snd x).
Proof. unfold resp_write. destruct (p_comp r); [reflexivity|]. now destruct (uw_write (p_u r) b) as [[u w] err]. Qed.

Section CallInvariant.
Variable P : resp -> Prop.
Hypothesis P_header : forall r n, P r -> P (resp_write_header r n).
Hypothesis P_write : forall r b, P r -> P (fst (resp_write r b)).
Hypothesis P_pretty : forall r b, P r -> P (fst (resp_step r (OPretty b))).

Lemma inv_write_chunks chunks : forall r, P r -> P (fst (resp_write_chunks r chunks)).
Proof.
  induction chunks as [|c rest IH]; intros r Hr; cbn [resp_write_chunks]; [exact Hr|].
  pose proof (P_write r c Hr) as H1. destruct (resp_write r c) as [r1 [|]]; [exact H1|now apply IH].
Qed.

Lemma inv_step o r : P r -> P (fst (resp_step r o)).
Proof.
  intros Hr. destruct o as [b|n|n reason|n found vnil marshal|b]; [cbn [resp_step fst]; auto..| |now apply P_pretty].
  cbn [resp_step]. destruct found, vnil, marshal as [chunks|]; cbn [negb fst]; auto using inv_write_chunks.
  destruct (p_pretty r); cbn [fst]; auto.
Qed.

Lemma inv_run ops : forall r, P r -> P (fst (resp_run r ops)).
Proof.
  induction ops as [|o rest IH]; intros r Hr; cbn [resp_run]; [exact Hr|].
  pose proof (inv_step o r Hr) as H1. destruct (resp_step r o) as [r1 e]. specialize (IH r1 H1).
  now destruct (resp_run r1 rest).
Qed.
End CallInvariant.

Lemma len_write_header r n : len_inv r -> len_inv (resp_write_header r n).
Proof. unfold len_inv, resp_write_header. now rewrite uw_header_eq. Qed.

Lemma len_write r b : len_inv r -> len_inv (fst (resp_write r b)).
Proof.
  rewrite resp_write_eq. unfold len_inv. cbn [fst p_clen p_cbytes p_u p_comp]. intros [H1 H2]. destruct (p_comp r).
  - rewrite uw_header_eq. cbn [u_bytes]. split; [lia|exact H2].
  - rewrite uw_write_eq. cbn [u_bytes]. split; [lia|exact H2].
Qed.

(* statusCode = what the underlying writer received; [started] as in wf_ops: false while no call has written yet,
   and then nothing was sent and statusCode is still the default *)
Definition st_inv (started : bool) (r : resp) : Prop :=
  (started = false -> u_status (p_u r) = None /\ p_code r = 200%Z) /\
  (u_status (p_u r) = None /\ p_code r = 200%Z \/ u_status (p_u r) = Some (p_code r) /\ (100 <= p_code r)%Z).

Lemma st_init script comp pretty : st_inv false (resp_init script comp pretty).
Proof. split; [split; reflexivity|left; split; reflexivity]. Qed.

Lemma st_write_header started r n :
  (100 <=? n)%Z = true -> started = false -> st_inv started r -> st_inv true (resp_write_header r n).
Proof.
  intros Hn%Z.leb_le -> [H0 _]. destruct (H0 eq_refl) as [Hs Hc]. unfold st_inv. cbn [resp_write_header p_u p_code].
  rewrite uw_header_eq, Hs. split; [discriminate|]. right. split; [reflexivity|exact Hn].
Qed.

Lemma pretty_write r b : p_pretty (fst (resp_write r b)) = p_pretty r.
Proof. now rewrite resp_write_eq. Qed.

Lemma pretty_write_chunks chunks r : p_pretty (fst (resp_write_chunks r chunks)) = p_pretty r.
Proof. apply (inv_write_chunks (fun r0 => p_pretty r0 = p_pretty r)); [|reflexivity]. intros r0 b <-. apply pretty_write. Qed.

Lemma status_write r b :
  u_status (p_u (fst (resp_write r b))) = Some (uw_seen (p_u r)) /\ p_code (fst (resp_write r b)) = p_code r.
Proof.
  rewrite resp_write_eq. split; [|reflexivity]. cbn [fst p_u]. now destruct (p_comp r); [rewrite uw_header_eq|rewrite uw_write_eq].
Qed.

Lemma st_write started r b : st_inv started r -> st_inv true (fst (resp_write r b)).
Proof.
  unfold st_inv. destruct (status_write r b) as [-> ->]. unfold uw_seen. intros [_ H].
  split; [discriminate|]. right. destruct H as [[-> ->]|[-> H]]; split; [reflexivity|discriminate|reflexivity|exact H].
Qed.

Lemma st_write_chunks chunks r : st_inv true r -> st_inv true (fst (resp_write_chunks r chunks)).
Proof. apply inv_write_chunks. apply st_write. Qed.

Lemma st_weaken r : st_inv false r -> st_inv true r.
Proof. intros [_ H]. split; [discriminate|exact H]. Qed.

(* one call in the terms of wf_ops: a status is set only while nothing has been written (third premise), and [started]
   afterwards is what wf_ops threads on *)
Lemma st_step started r o :
  st_inv started r ->
  status_arg_ok o = true -> (sets_status (p_pretty r) o = true -> started = false) ->
  st_inv (started || sets_status (p_pretty r) o || calls_write o) (fst (resp_step r o)) /\
  p_pretty (fst (resp_step r o)) = pretty_after (p_pretty r) o.
Proof.
  destruct o as [b|n|n reason|n found vnil marshal|b]; cbn [resp_step sets_status calls_write status_arg_ok pretty_after];
    intros Hi Hn Hs.
  - rewrite orb_true_r. split; [exact (st_write _ _ _ Hi)|apply pretty_write].
  - rewrite orb_true_r. split; [exact (st_write_header _ _ _ Hn (Hs eq_refl) Hi)|reflexivity].
  - rewrite orb_true_r. split; [|exact (pretty_write _ _)]. exact (st_write _ _ _ (st_write_header _ _ _ Hn (Hs eq_refl) Hi)).
  - destruct found; cbn [negb andb fst];
      [|rewrite orb_true_r; split; [exact (st_write_header _ _ 406 eq_refl (Hs eq_refl) Hi)|reflexivity]].
    destruct vnil; cbn [negb];
      [rewrite orb_true_r; split; [exact (st_write_header _ _ _ Hn (Hs eq_refl) Hi)|reflexivity]|].
    destruct marshal as [chunks|].
    + rewrite orb_true_r. split; [|exact (pretty_write_chunks _ _)].
      exact (st_write_chunks _ _ (st_write_header _ _ _ Hn (Hs eq_refl) Hi)).
    + destruct (p_pretty r) eqn:Ep; cbn [negb fst].
      * rewrite !orb_false_r. split; [exact Hi|exact Ep].
      * rewrite orb_true_r. split; [exact (st_write_header _ _ _ Hn (Hs eq_refl) Hi)|exact Ep].
  - cbn [fst]. rewrite !orb_false_r. split; [exact Hi|reflexivity].
Qed.

Lemma st_run ops : forall started r,
  st_inv started r -> wf_ops started (p_pretty r) ops = true -> st_inv true (fst (resp_run r ops)).
Proof.
  induction ops as [|o rest IH]; intros started r Hi; cbn [resp_run wf_ops].
  - intros _. destruct started; [exact Hi|exact (st_weaken r Hi)].
  - intros Hwf. apply andb_true_iff in Hwf as [Hwf Hrest]. apply andb_true_iff in Hwf as [Harg Hset].
    destruct (st_step started r o Hi Harg) as [Hi1 Hp].
    { intros Hs. rewrite Hs in Hset. now destruct started. }
    rewrite <- Hp in Hrest. destruct (resp_step r o) as [r1 e]. specialize (IH _ r1 Hi1 Hrest). now destruct (resp_run r1 rest).
Qed.

Lemma st_inv_status_code started r : st_inv started r -> status_code r = uw_seen (p_u r).
Proof.
  intros [_ [[Hs Hc]|[Hs Hc]]]; unfold status_code, uw_seen; rewrite Hs.
  - now rewrite Hc.
  - destruct (Z.eqb_spec (p_code r) 0); [lia|reflexivity].
Qed.

(* the writer's failure counter, [n] before the call, has gone up by one exactly when the call reports an error *)
Definition counted (n : nat) (re : resp * bool) : Prop :=
  u_fails (p_u (fst re)) = if snd re then S n else n.

Lemma fails_write r b : counted (u_fails (p_u r)) (resp_write r b).
Proof.
  unfold counted. rewrite resp_write_eq. cbn [fst snd p_u]. now destruct (p_comp r); [rewrite uw_header_eq|rewrite uw_write_eq].
Qed.

Lemma fails_write_header r n : u_fails (p_u (resp_write_header r n)) = u_fails (p_u r).
Proof. cbn [resp_write_header p_u]. now rewrite uw_header_eq. Qed.

(* an encoder stops at the first error *)
Lemma fails_write_chunks chunks : forall r, counted (u_fails (p_u r)) (resp_write_chunks r chunks).
Proof.
  induction chunks as [|c rest IH]; intros r; cbn [resp_write_chunks]; [reflexivity|].
  pose proof (fails_write r c) as H. unfold counted in *. destruct (resp_write r c) as [r1 [|]]; cbn [fst snd] in *; [exact H|].
  now rewrite IH, H.
Qed.

Theorem step_error_reported r o r' e :
  resp_step r o = (r', e) -> u_fails (p_u r) < u_fails (p_u r') -> e = true.
Proof.
  assert (Hc : forall n re, counted n re -> re = (r', e) -> n < u_fails (p_u r') -> e = true).
  { unfold counted. intros n re H ->. cbn in H. destruct e; [reflexivity|lia]. }
  destruct o as [b|n|n reason|n found vnil marshal|b]; cbn [resp_step].
  - apply Hc, fails_write.
  - intros [= <- <-]. rewrite fails_write_header. lia.
  - rewrite <- (fails_write_header r n). apply Hc, fails_write.
  - destruct found; cbn [negb]; [|intros [= <- <-]; rewrite fails_write_header; lia].
    destruct vnil; [intros [= <- <-]; rewrite fails_write_header; lia|].
    destruct marshal as [chunks|].
    + rewrite <- (fails_write_header r n). apply Hc, fails_write_chunks.
    + destruct (p_pretty r); now intros [= <- <-].
  - intros [= <- <-]. cbn. lia.
Qed.

Theorem run_bookkeeping started r0 ops :
  st_inv started r0 -> len_inv r0 -> wf_ops started (p_pretty r0) ops = true ->
  let r := fst (resp_run r0 ops) in
  status_code r = uw_seen (p_u r) /\ len_inv r /\ p_comp r = p_comp r0.
Proof.
  intros Hst Hlen Hwf r. split.
  - exact (st_inv_status_code true _ (st_run ops started r0 Hst Hwf)).
  - apply (inv_run (fun r => len_inv r /\ p_comp r = p_comp r0)); [| | |now split].
    + intros r1 n [Hl Hc]. split; [now apply len_write_header|exact Hc].
    + intros r1 b [Hl Hc]. split; [now apply len_write|now rewrite resp_write_eq].
    + intros r1 b H. exact H.
Qed.

(* the failure counter before and after each call of a run: C15_errors reads step_error_reported along it *)
Fixpoint fails_trace (r : resp) (ops : list rop) : list (nat * nat) :=
  match ops with
  | [] => []
  | o :: rest => let r1 := fst (resp_step r o) in (u_fails (p_u r), u_fails (p_u r1)) :: fails_trace r1 rest
  end.

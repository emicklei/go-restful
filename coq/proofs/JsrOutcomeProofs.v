(* JsrOutcomeProofs.v — RouterJSR311: the candidates are exactly the routes that jsr_admits_path accepts (the matcher
   is sound and complete, JsrProofs.jsr_route_iff), hence the outcome is the declarative cascade (C02). *)
From Model Require Import Str Http Template Table Jsr311 Router.
From Spec Require Import RouteSpec.
From Proofs Require Import StrFacts SortFacts RouterProofs OutcomeProofs JsrProofs.
From Coq Require Import Permutation.

Section JsrOutcome.
Variable O : oracles.

Definition jsr_all_agree (w : service) : bool :=
  tokens_agree (s_root w) && forallb (fun r => tokens_agree (r_rel r)) (s_routes w).

Lemma jsr_candidates_perm w path caps fin :
  jsr_all_agree w = true ->
  jsr_match O (pe_toks (path_expression (s_root w))) path = Some (caps, fin) ->
  Permutation (map rc_route (jsr_select_routes O w fin))
              (filter (fun r => jsr_admits_path O w r path) (s_routes w)).
Proof.
  intros Hag Hm1. apply andb_true_iff in Hag as [Hw Hrs]. rewrite forallb_forall in Hrs. unfold jsr_select_routes.
  rewrite (sort_desc_perm rc_lt), (flat_map_filter rc_route _ (fun r => jsr_admits_path O w r path)); [reflexivity|].
  intros r Hr. rewrite <- (jsr_route_iff O w r path caps fin Hw (Hrs r Hr) Hm1).
  destruct (jsr_match O (pe_toks (path_expression (r_rel r))) fin) as [[c2 f2]|]; [|reflexivity]. now destruct (final_ok f2).
Qed.

Definition jsr_expected (t : table) (req : request) : soutcome :=
  match detect_dispatcher O (rq_path req) (t_services t) with
  | None => SStatus 404 []
  | Some (w, _) => spec_cascade (filter (fun r => jsr_admits_path O w r (rq_path req)) (s_routes w)) req
  end.

Definition jsr_best_agree (t : table) (req : request) : bool :=
  match detect_dispatcher O (rq_path req) (t_services t) with
  | None => true
  | Some (w, _) => jsr_all_agree w
  end.

Theorem jsr_outcome_exact t req :
  t_router t = Jsr311 -> jsr_best_agree t req = true ->
  route_request O t req <> RPanic /\
  meets (jsr_expected t req) (routed_view (route_request O t req)) = true.
Proof.
  intros Ht Hag. unfold jsr_best_agree, jsr_expected in *. pose proof (select_route_eq O t req) as Hs. rewrite Ht in Hs.
  destruct (detect_dispatcher O _ _) as [[w fin]|] eqn:Ed.
  - destruct (detect_dispatcher_sound O _ _ _ _ Ed) as (_ & caps & Hm1).
    apply (outcome_exact O t req w _ _ Hs (jsr_candidates_perm w _ caps fin Hag Hm1)). intros r _.
    exact (jsr_extract_total O t w r _ caps fin Ht Hm1).
  - unfold route_request. rewrite Hs. split; [discriminate|reflexivity].
Qed.

End JsrOutcome.

(* CorsProofs.v — C08 / C09: the headers CrossOriginResourceSharing.Filter adds are the rows, switched on or off,
   of one fixed menu of six distinct Access-Control-* names; every clause of the two properties is read off that menu. *)
From Model Require Import Str Http Cors.
From Spec Require Import CorsSpec.
From Proofs Require Import StrFacts.

(* rows switched on and off: what a run of conditional [hadd]s, one per row, appends ([fold_hadd_enabled]) *)
Definition enabled {A} (l : list (bool * A)) : list A := map snd (filter fst l).

Lemma enabled_cons {A} b (x : A) l : enabled ((b, x) :: l) = (if b then [x] else []) ++ enabled l.
Proof. now destruct b. Qed.

Lemma fold_hadd_enabled (menu : list (bool * (str * str))) : forall h,
  fold_left (fun h (r : bool * (str * str)) => if fst r then hadd h (fst (snd r)) (snd (snd r)) else h) menu h
  = h ++ enabled menu.
Proof.
  induction menu as [|[b [k v]] menu IH]; intros h; cbn [fold_left fst snd]; [symmetry; apply app_nil_r|].
  rewrite IH, enabled_cons. destruct b; [apply app_assoc_reverse|reflexivity].
Qed.

Lemma in_enabled {A} (x : A) l : In x (enabled l) <-> In (true, x) l.
Proof.
  unfold enabled. rewrite in_map_iff. split.
  - intros ([b y] & <- & H). apply filter_In in H as [H Hb]. cbn in Hb. now subst b.
  - exists (true, x). split; [reflexivity|]. now apply filter_In.
Qed.

Lemma NoDup_enabled {A B} (f : A -> B) l : NoDup (map f (map snd l)) -> NoDup (map f (enabled l)).
Proof.
  induction l as [|[b x] l IH]; cbn [map snd]; intros H; [constructor|].
  apply NoDup_cons_iff in H as [Hx Hl]. rewrite enabled_cons. destruct b; cbn [app map]; [|now apply IH].
  constructor; [|now apply IH]. intros Hin. apply Hx.
  apply in_map_iff in Hin as (y & <- & Hy). apply in_enabled in Hy. apply in_map. now apply (in_map snd) in Hy.
Qed.

(* in a menu of distinct names, what is enabled under a name is that name's row, and the row is on *)
Lemma enabled_row {K V} (l : list (bool * (K * V))) k v f v' :
  In (k, v) (enabled l) -> In (f, (k, v')) l -> NoDup (map (fun r => fst (snd r)) l) -> f = true /\ v = v'.
Proof.
  intros H H' Hnd. apply in_enabled in H. assert (E : (true, (k, v)) = (f, (k, v'))); [|injection E as <- <-; now split].
  now apply (NoDup_map_inj (fun r => fst (snd r)) l).
Qed.

Lemma count_key_nodup k h : NoDup (map fst h) -> count_key k h = if mem k (map fst h) then 1 else 0.
Proof.
  unfold count_key. induction h as [|[k' v] h IH]; [reflexivity|]. cbn [map fst filter mem]. intros H.
  apply NoDup_cons_iff in H as [Hk Hh]. rewrite (str_eqb_sym k k'). destruct (str_eqb k' k) eqn:E; cbn [orb]; [|now apply IH].
  apply str_eqb_eq in E. subst k'. apply mem_false in Hk. cbn [length]. now rewrite (IH Hh), Hk.
Qed.

(* the name column of [grant_menu] below, in its order: [NoDup (map (fun r => fst (snd r)) (grant_menu ..))] is
   [grant_names_nodup] by conversion, so the two lists go together *)
Definition grant_names : list str :=
  [H_ACAllowMethods; H_ACAllowHeaders; H_ACExposeHeaders; H_ACAllowOrigin; H_ACAllowCredentials; H_ACMaxAge].

Lemma grant_names_nodup : NoDup grant_names.
Proof. repeat (constructor; [now apply mem_false|]). constructor. Qed.

Lemma accepts_spec (fo : option (str -> bool)) x :
  match fo with Some f => f x | None => false end = true <-> exists f, fo = Some f /\ f x = true.
Proof. destruct fo as [f|]; split; [eauto|now intros (? & [= <-] & H)|discriminate|now intros (? & [=] & _)]. Qed.

Section P.
Variable O : oracles.

Lemma allowedb_spec c origin : allowedb O c origin = true <-> allowed O c origin.
Proof.
  unfold allowedb, allowed. destruct origin as [|o0 orest]; [split; [discriminate|now intros [[] _]]|].
  set (origin := o0 :: orest). assert (Hne : origin <> []) by discriminate.
  destruct (c_domains c) as [|d ds].
  - destruct (c_func c) as [f|]; split; auto.
    + split; [exact Hne|]. do 3 right. eauto.
    + now intros [_ [[_ [=]]|[(? & [] & _)|[[]|(? & [= <-] & H)]]]].
  - etransitivity; [exact (orb_iff _ _ _ _ (orb_iff _ _ _ _ (existsb_str_eqb _ _ _) (mem_In _ _)) (accepts_spec _ _))|].
    split; [intros H%or_assoc; split; [exact Hne|right; exact H]|now intros [_ [[[=] _]|H%or_assoc]]].
Qed.

(* the code's test and the property's notion coincide *)
Lemma is_origin_allowed_allowedb c origin :
  is_origin_allowed O c origin = allowedb O c origin.
Proof.
  unfold is_origin_allowed, allowedb. destruct origin as [|o0 orest]; [reflexivity|].
  set (origin := o0 :: orest).
  destruct (c_domains c) as [|d ds]; [destruct (c_func c); reflexivity|].
  rewrite (existsb_or_mem _ (fun d0 => str_eqb (o_lower O d0) (o_lower O origin)) (L ".*")) by (intros; apply orb_comm).
  destruct (existsb _ _ || mem _ _); [reflexivity|]. now destruct (c_func c).
Qed.

Lemma is_origin_allowed_spec c origin : is_origin_allowed O c origin = true <-> allowed O c origin.
Proof. rewrite is_origin_allowed_allowedb. apply allowedb_spec. Qed.

(* what the filter adds: the enabled rows of one menu; [b] in [grant_menu] switches the two preflight rows *)
Definition opts_suffix (c : cors_cfg) (origin : str) : headers := set_options_headers O c origin [].

Definition opts_menu (c : cors_cfg) (origin : str) : list (bool * (str * str)) :=
  [ (match c_expose c with [] => false | _ => true end, (H_ACExposeHeaders, join [comma] (c_expose c)));
    (is_origin_allowed O c origin, (H_ACAllowOrigin, origin));
    (c_cookies c, (H_ACAllowCredentials, L "true"));
    (Z.ltb 0 (c_maxage c), (H_ACMaxAge, itoa (c_maxage c))) ].
Definition grant_menu (c : cors_cfg) (origin : str) (b : bool) (methods acrh : str) : list (bool * (str * str)) :=
  (b, (H_ACAllowMethods, methods)) :: (b, (H_ACAllowHeaders, acrh)) :: opts_menu c origin.

Lemma set_options_headers_menu c origin h :
  set_options_headers O c origin h = h ++ enabled (opts_menu c origin).
Proof.
  rewrite <- fold_hadd_enabled. unfold set_options_headers, opts_menu. cbn [fold_left fst snd].
  destruct (c_expose c); reflexivity.
Qed.

Lemma opts_suffix_grant c origin m a : opts_suffix c origin = enabled (grant_menu c origin false m a).
Proof. apply set_options_headers_menu. Qed.

Lemma set_options_headers_app c origin h :
  set_options_headers O c origin h = h ++ opts_suffix c origin.
Proof. unfold opts_suffix. now rewrite !set_options_headers_menu. Qed.

Lemma grant_keys c origin b m a k v : In (k, v) (enabled (grant_menu c origin b m a)) -> is_grant_name k = true.
Proof.
  intros H. apply in_enabled in H. apply (proj1 (forallb_forall is_grant_name grant_names) eq_refl).
  exact (in_map (fun r => fst (snd r)) _ _ H).
Qed.

Lemma grant_nodup c origin b m a : NoDup (map fst (enabled (grant_menu c origin b m a))).
Proof. apply NoDup_enabled. exact grant_names_nodup. Qed.

Lemma origin_row c origin b m a :
  In (is_origin_allowed O c origin, (H_ACAllowOrigin, origin)) (grant_menu c origin b m a).
Proof. do 3 right. now left. Qed.

Lemma credentials_row c origin b m a : In (c_cookies c, (H_ACAllowCredentials, L "true")) (grant_menu c origin b m a).
Proof. do 4 right. now left. Qed.

Lemma grant_origin_count c origin b m a :
  is_origin_allowed O c origin = true -> count_key H_ACAllowOrigin (enabled (grant_menu c origin b m a)) = 1.
Proof.
  intros Ha. rewrite count_key_nodup by apply grant_nodup.
  replace (mem _ _) with true; [reflexivity|]. symmetry. apply mem_In.
  apply (in_map fst _ (H_ACAllowOrigin, origin)). apply in_enabled. rewrite <- Ha. apply origin_row.
Qed.

Lemma opts_suffix_origin_count c origin : count_key H_ACAllowOrigin (opts_suffix c origin) <= 1.
Proof.
  rewrite (opts_suffix_grant c origin [] []), count_key_nodup by apply grant_nodup. destruct (mem _ _); auto.
Qed.

Lemma valid_request_header_spec c hd :
  valid_request_header O c hd = header_allowedb O c hd.
Proof.
  unfold valid_request_header, header_allowedb. rewrite orb_comm. now apply existsb_or_mem.
Qed.

Lemma do_preflight_spec c computed req :
  do_preflight O c computed req =
    if preflight_grantedb O c computed req then
      [(H_ACAllowMethods, join [comma] (match c_methods c with [] => computed | m => m end));
       (H_ACAllowHeaders, hget req H_ACRequestHeaders)] ++ opts_suffix c (hget req H_Origin)
    else [].
Proof.
  unfold do_preflight, preflight_grantedb, requested_headers. rewrite set_options_headers_app.
  destruct (mem (hget req H_ACRequestMethod) _); cbn [negb andb]; [|reflexivity].
  destruct (hget req H_ACRequestHeaders) as [|h0 hr]; [reflexivity|].
  rewrite forallb_map. erewrite forallb_ext; [|intros a; apply valid_request_header_spec]. now destruct (forallb _ _).
Qed.

Lemma cors_decide_eq c computed req :
  let origin := hget req H_Origin in
  cors_decide O c computed req =
    if is_origin_allowed O c origin then
      if is_preflight req then
        (if preflight_grantedb O c computed req then
           [(H_ACAllowMethods, join [comma] (match c_methods c with [] => computed | m => m end));
            (H_ACAllowHeaders, hget req H_ACRequestHeaders)] ++ opts_suffix c origin
         else [], false)
      else (opts_suffix c origin, true)
    else ([], true).
Proof.
  intros origin. rewrite <- do_preflight_spec. unfold cors_decide, is_preflight. fold origin.
  destruct origin as [|o0 orest]; [reflexivity|].
  destruct (is_origin_allowed O c (o0 :: orest)); cbn [negb]; [|reflexivity].
  destruct (str_eqb (rq_method req) (L "OPTIONS")); cbn [negb andb]; [|reflexivity].
  now destruct (hget req H_ACRequestMethod).
Qed.

Lemma cors_decide_nonempty_allowed c computed req hs pass :
  cors_decide O c computed req = (hs, pass) -> hs <> [] ->
  is_origin_allowed O c (hget req H_Origin) = true.
Proof.
  rewrite cors_decide_eq. destruct (is_origin_allowed O c (hget req H_Origin)); [reflexivity|].
  now intros [= <- _].
Qed.

Lemma header_allowedb_spec c hd :
  header_allowedb O c hd = true <->
  In (L "*") (c_headers c) \/ exists e, In e (c_headers c) /\ o_lower O e = o_lower O hd.
Proof. exact (orb_iff _ _ _ _ (mem_In _ _) (existsb_str_eqb _ _ _)). Qed.

Lemma preflight_granted_spec c computed req :
  preflight_grantedb O c computed req = true <->
  In (hget req H_ACRequestMethod) (match c_methods c with [] => computed | m => m end) /\
  (forall hd, In hd (requested_headers req) ->
     In (L "*") (c_headers c) \/ exists e, In e (c_headers c) /\ o_lower O e = o_lower O hd).
Proof.
  unfold preflight_grantedb. rewrite andb_true_iff, mem_In, forallb_forall.
  split; intros [H1 H2]; (split; [exact H1|]); intros hd Hin; apply header_allowedb_spec, H2, Hin.
Qed.

(* whatever the filter adds is among the enabled rows of one menu, and is all of them when it adds anything *)
Lemma cors_decide_menu c computed req :
  let origin := hget req H_Origin in
  let hs := fst (cors_decide O c computed req) in
  let m := join [comma] (match c_methods c with [] => computed | m => m end) in
  let menu := grant_menu c origin (is_preflight req) m (hget req H_ACRequestHeaders) in
  incl hs (enabled menu) /\ (hs <> [] -> is_origin_allowed O c origin = true /\ hs = enabled menu).
Proof.
  intros origin hs m menu.
  assert (H : hs = [] \/ is_origin_allowed O c origin = true /\ hs = enabled menu).
  { subst hs. rewrite cors_decide_eq. fold origin m.
    (* [enabled (grant_menu .. true ..)] computes to the two preflight rows followed by [enabled (grant_menu .. false ..)] *)
    rewrite (opts_suffix_grant c origin m (hget req H_ACRequestHeaders)).
    destruct (is_origin_allowed O c origin); [|now left].
    destruct (is_preflight req); [destruct (preflight_grantedb O c computed req)|]; auto. }
  destruct H as [->|[Ha ->]]; split; [apply incl_nil_l|intros []; reflexivity|apply incl_refl|intros _; now split].
Qed.

End P.

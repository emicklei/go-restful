(* SortFacts.v — both routers order their candidates by an insertion sort whose Less is a
   lexicographic product of "<" on numbers and on strings.  Such a product is a strict total
   order on the keys; the sort is then sorted whatever the input order, and the first
   element of the result that passes a test is the greatest passing element of the input. *)
From Model Require Import Str Curly Jsr311.
From Coq Require Import Lia Permutation Sorted.

Definition strict_total {A} (lt : A -> A -> bool) : Prop :=
  (forall a b, lt a b = true -> lt b a = false) /\
  (forall a b c, lt a b = true -> lt b c = true -> lt a c = true) /\
  (forall a b, lt a b = false -> lt b a = false -> a = b).

Section Lex.
Context {A B : Type} (ltA : A -> A -> bool) (ltB : B -> B -> bool).

Definition lex (a b : A * B) : bool :=
  if ltA (fst a) (fst b) then true else if ltA (fst b) (fst a) then false else ltB (snd a) (snd b).

Hypothesis HA : strict_total ltA.

(* pointwise in the second component, so that they also serve an induction (str_ltb) *)
Lemma lex_asym x a y b :
  (ltB a b = true -> ltB b a = false) -> lex (x, a) (y, b) = true -> lex (y, b) (x, a) = false.
Proof.
  destruct HA as (asym & _ & _). unfold lex; cbn [fst snd]. intros HB.
  destruct (ltA x y) eqn:E; [now rewrite (asym _ _ E)|]. destruct (ltA y x); [discriminate|exact HB].
Qed.

Lemma lex_tie x a y b :
  lex (x, a) (y, b) = false -> lex (y, b) (x, a) = false -> x = y /\ ltB a b = false /\ ltB b a = false.
Proof.
  destruct HA as (_ & _ & total). unfold lex; cbn [fst snd].
  destruct (ltA x y) eqn:E; [discriminate|]. destruct (ltA y x) eqn:E'; [discriminate|]. auto.
Qed.

Lemma lex_trans x a y b z c :
  (ltB a b = true -> ltB b c = true -> ltB a c = true) ->
  lex (x, a) (y, b) = true -> lex (y, b) (z, c) = true -> lex (x, a) (z, c) = true.
Proof.
  destruct HA as (asym & trans & total). unfold lex; cbn [fst snd]. intros HB.
  destruct (ltA x y) eqn:Exy.
  - destruct (ltA y z) eqn:Eyz; [now rewrite (trans _ _ _ Exy Eyz)|].
    destruct (ltA z y) eqn:Ezy; [discriminate|]. now rewrite <- (total _ _ Eyz Ezy), Exy.
  - destruct (ltA y x) eqn:Eyx; [discriminate|]. rewrite (total _ _ Exy Eyx).
    destruct (ltA y z); [reflexivity|]. destruct (ltA z y); [discriminate|exact HB].
Qed.

Lemma lex_strict_total : strict_total ltB -> strict_total lex.
Proof.
  intros (asymB & transB & totalB). repeat split.
  - intros [x a] [y b]. apply lex_asym, asymB.
  - intros [x a] [y b] [z c]. apply lex_trans, transB.
  - intros [x a] [y b] H1 H2. destruct (lex_tie _ _ _ _ H1 H2) as (-> & Hab & Hba). now rewrite (totalB _ _ Hab Hba).
Qed.

End Lex.

Lemma nat_ltb_strict : strict_total Nat.ltb.
Proof.
  repeat split.
  - intros a b H. apply Nat.ltb_lt in H. apply Nat.ltb_ge. lia.
  - intros a b c H1 H2. apply Nat.ltb_lt in H1, H2. apply Nat.ltb_lt. lia.
  - intros a b H1 H2. apply Nat.ltb_ge in H1, H2. lia.
Qed.

Lemma ascii_ltb_strict : strict_total (fun x y => N.ltb (N_of_ascii x) (N_of_ascii y)).
Proof.
  repeat split.
  - intros a b H. apply N.ltb_lt in H. apply N.ltb_ge. lia.
  - intros a b c H1 H2. apply N.ltb_lt in H1, H2. apply N.ltb_lt. lia.
  - intros a b H1 H2. apply N.ltb_ge in H1, H2.
    rewrite <- (ascii_N_embedding a), <- (ascii_N_embedding b). f_equal. lia.
Qed.

(* Go's byte-wise string "<": the product of the order on bytes with itself, along the string *)
Lemma str_ltb_strict : strict_total str_ltb.
Proof.
  repeat split.
  - induction a as [|x a IH]; intros [|y b] H; try discriminate H; try reflexivity.
    exact (lex_asym _ _ ascii_ltb_strict x a y b (IH b) H).
  - induction a as [|x a IH]; intros [|y b] [|z c] H1 H2; try discriminate H1; try discriminate H2; try reflexivity.
    exact (lex_trans _ _ ascii_ltb_strict x a y b z c (IH b c) H1 H2).
  - induction a as [|x a IH]; intros [|y b] H1 H2; try discriminate H1; try discriminate H2; [reflexivity|].
    destruct (lex_tie _ _ ascii_ltb_strict x a y b H1 H2) as (-> & Hab & Hba). now rewrite (IH b Hab Hba).
Qed.

(* the three Less relations of model/Curly.v and model/Jsr311.v are lexicographic on these keys: [cc_lt a b] converts
   to [lex Nat.ltb (lex Nat.ltb str_ltb) (cc_key a) (cc_key b)], and likewise the other two, which is how the laws of
   the product are handed to them below (they are stated here, with the order theory, so that every later file finds
   asymmetry, transitivity and ties in one place) *)
Definition cc_key (c : curly_cand) := (cc_static c, (cc_param c, cc_path c)).
Definition rc_key (c : route_cand) := (rc_literal c, (rc_matches c, (rc_nondef c, rc_path c))).
Definition dc_key (c : disp_cand) := (dc_matches c, (dc_literal c, dc_nondef c)).

Lemma lex_nat_strict {B} (ltB : B -> B -> bool) : strict_total ltB -> strict_total (lex Nat.ltb ltB).
Proof. apply lex_strict_total, nat_ltb_strict. Qed.

Lemma cc_key_strict : strict_total (lex Nat.ltb (lex Nat.ltb str_ltb)).
Proof. apply lex_nat_strict, lex_nat_strict, str_ltb_strict. Qed.
Lemma cc_lt_asym a b : cc_lt a b = true -> cc_lt b a = false.
Proof. exact (proj1 cc_key_strict (cc_key a) (cc_key b)). Qed.
Lemma cc_lt_trans a b c : cc_lt a b = true -> cc_lt b c = true -> cc_lt a c = true.
Proof. exact (proj1 (proj2 cc_key_strict) (cc_key a) (cc_key b) (cc_key c)). Qed.
Lemma cc_lt_tie a b : cc_lt a b = false -> cc_lt b a = false -> cc_key a = cc_key b.
Proof. exact (proj2 (proj2 cc_key_strict) (cc_key a) (cc_key b)). Qed.

Lemma cc_lt_static a b : cc_static a < cc_static b -> cc_lt a b = true.
Proof. unfold cc_lt. intros H. apply Nat.ltb_lt in H. now rewrite H. Qed.

Lemma rc_key_strict : strict_total (lex Nat.ltb (lex Nat.ltb (lex Nat.ltb str_ltb))).
Proof. apply lex_nat_strict, lex_nat_strict, lex_nat_strict, str_ltb_strict. Qed.
Lemma rc_lt_asym a b : rc_lt a b = true -> rc_lt b a = false.
Proof. exact (proj1 rc_key_strict (rc_key a) (rc_key b)). Qed.
Lemma rc_lt_trans a b c : rc_lt a b = true -> rc_lt b c = true -> rc_lt a c = true.
Proof. exact (proj1 (proj2 rc_key_strict) (rc_key a) (rc_key b) (rc_key c)). Qed.
Lemma rc_lt_tie a b : rc_lt a b = false -> rc_lt b a = false -> rc_key a = rc_key b.
Proof. exact (proj2 (proj2 rc_key_strict) (rc_key a) (rc_key b)). Qed.

Lemma rc_lt_literal a b : rc_literal a < rc_literal b -> rc_lt a b = true.
Proof. unfold rc_lt. intros H. apply Nat.ltb_lt in H. now rewrite H. Qed.

Lemma dc_key_strict : strict_total (lex Nat.ltb (lex Nat.ltb Nat.ltb)).
Proof. apply lex_nat_strict, lex_nat_strict, nat_ltb_strict. Qed.
Lemma dc_lt_asym a b : dc_lt a b = true -> dc_lt b a = false.
Proof. exact (proj1 dc_key_strict (dc_key a) (dc_key b)). Qed.
Lemma dc_lt_trans a b c : dc_lt a b = true -> dc_lt b c = true -> dc_lt a c = true.
Proof. exact (proj1 (proj2 dc_key_strict) (dc_key a) (dc_key b) (dc_key c)). Qed.
Lemma dc_lt_tie a b : dc_lt a b = false -> dc_lt b a = false -> dc_key a = dc_key b.
Proof. exact (proj2 (proj2 dc_key_strict) (dc_key a) (dc_key b)). Qed.

Lemma dc_lt_literal a b : dc_matches a = dc_matches b -> dc_literal a < dc_literal b -> dc_lt a b = true.
Proof. unfold dc_lt. intros -> H. apply Nat.ltb_lt in H. now rewrite Nat.ltb_irrefl, H. Qed.

Lemma dc_lt_key a a' b b' : dc_key a = dc_key a' -> dc_key b = dc_key b' -> dc_lt a b = dc_lt a' b'.
Proof. intros [= A1 A2 A3] [= B1 B2 B3]. unfold dc_lt. now rewrite A1, A2, A3, B1, B2, B3. Qed.

Section Sort.
Context {X : Type} (lt : X -> X -> bool).

Lemma sort_desc_snoc l x : sort_desc lt (l ++ [x]) = insert_desc lt x (sort_desc lt l).
Proof. unfold sort_desc. now rewrite fold_left_app. Qed.

Lemma insert_desc_perm x l : Permutation (insert_desc lt x l) (x :: l).
Proof.
  induction l as [|y l IH]; cbn; [reflexivity|]. destruct (lt y x); [reflexivity|].
  rewrite IH. apply perm_swap.
Qed.

Lemma sort_desc_perm l : Permutation (sort_desc lt l) l.
Proof.
  induction l as [|x l IH] using rev_ind; [reflexivity|].
  now rewrite sort_desc_snoc, insert_desc_perm, IH, Permutation_cons_append.
Qed.

Lemma sort_desc_In x l : In x (sort_desc lt l) <-> In x l.
Proof. split; apply Permutation_in; [apply sort_desc_perm | symmetry; apply sort_desc_perm]. Qed.

(* the result is sorted for any relation [R x y], "x may stand before y", that [lt] decides and that carries over an
   insertion: the new element goes before the first one that is less than it *)
Lemma sort_desc_sorted_by (R : X -> X -> Prop) :
  (forall x y, lt y x = true -> R x y) -> (forall x y, lt y x = false -> R y x) ->
  (forall x y z, lt y x = true -> R y z -> R x z) ->
  forall l, StronglySorted R (sort_desc lt l).
Proof.
  intros Hlt Hge Htr l. induction l as [|x l IH] using rev_ind; [constructor|]. rewrite sort_desc_snoc.
  induction IH as [|y s Hs IH Hy]; cbn [insert_desc]; [repeat constructor|]. destruct (lt y x) eqn:E.
  - constructor; [now constructor|]. constructor; [now apply Hlt|].
    eapply Forall_impl; [|exact Hy]. intros z. now apply Htr.
  - constructor; [exact IH|]. apply (Permutation_Forall (Permutation_sym (insert_desc_perm x s))).
    constructor; [now apply Hge|exact Hy].
Qed.

Lemma sort_desc_Forall2 {Y} (lt' : Y -> Y -> bool) (R : X -> Y -> Prop) :
  (forall a a' b b', R a a' -> R b b' -> lt a b = lt' a' b') ->
  forall l l', Forall2 R l l' -> Forall2 R (sort_desc lt l) (sort_desc lt' l').
Proof.
  intros Hlt l l' H. unfold sort_desc.
  enough (G : forall acc acc', Forall2 R acc acc' ->
            Forall2 R (fold_left (fun a x => insert_desc lt x a) l acc) (fold_left (fun a x => insert_desc lt' x a) l' acc'))
    by (apply G; constructor).
  induction H as [|x x' l l' Hx _ IH]; intros acc acc' Ha; cbn [fold_left]; [exact Ha|]. apply IH.
  induction Ha as [|y y' acc acc' Hy Ha IHa]; cbn; [now repeat constructor|].
  rewrite (Hlt y y' x x' Hy Hx). destruct (lt' y' x'); repeat constructor; assumption.
Qed.
End Sort.

Lemma find_sorted {X} (R : X -> X -> Prop) (P : X -> bool) l c :
  StronglySorted R l -> find P l = Some c ->
  P c = true /\ In c l /\ forall c1, In c1 l -> P c1 = true -> c1 = c \/ R c c1.
Proof.
  induction 1 as [|y l Hs IH Hy]; [discriminate|]. cbn [find]. destruct (P y) eqn:Ey.
  - intros [= <-]. split; [exact Ey|]. split; [now left|]. intros c1 [<-|Hin] _; [now left|]. right.
    rewrite Forall_forall in Hy. now apply Hy.
  - intros H. destruct (IH H) as (Hp & Hin & Hmax). split; [exact Hp|]. split; [now right|].
    intros c1 [<-|Hin1] Hp1; [congruence|]. now apply Hmax.
Qed.

Section Greatest.
Context {X : Type} (lt : X -> X -> bool).

Definition greatest (P : X -> bool) (l : list X) (c : X) : Prop :=
  In c l /\ P c = true /\ forall c1, In c1 l -> P c1 = true -> lt c c1 = false.

Lemma greatest_ext P l l' c : (forall x, In x l <-> In x l') -> greatest P l c -> greatest P l' c.
Proof. intros E (Hin & Hp & Hmax). split; [now apply E|]. split; [exact Hp|]. intros c1 H1. now apply Hmax, E. Qed.

Hypothesis lt_asym : forall a b, lt a b = true -> lt b a = false.
Hypothesis lt_trans : forall a b c, lt a b = true -> lt b c = true -> lt a c = true.

Lemma sort_desc_nlt l : StronglySorted (fun a b => lt a b = false) (sort_desc lt l).
Proof.
  apply sort_desc_sorted_by; [intros x y; apply lt_asym|auto|].
  intros x y z H Hz. destruct (lt x z) eqn:E; [|reflexivity]. now rewrite (lt_trans _ _ _ H E) in Hz.
Qed.

Lemma find_sorted_greatest P l c : find P (sort_desc lt l) = Some c -> greatest P (sort_desc lt l) c.
Proof.
  intros E. apply (find_sorted _ _ _ _ (sort_desc_nlt l)) in E as (Hp & Hin & Hmax).
  split; [exact Hin|]. split; [exact Hp|]. intros c1 H1 Hp1. destruct (Hmax c1 H1 Hp1) as [->|H]; [|exact H].
  destruct (lt c c) eqn:Ecc; [|reflexivity]. now rewrite (lt_asym _ _ Ecc) in Ecc.
Qed.

(* the same about the input list *)
Lemma find_sorted_greatest_of P l c : find P (sort_desc lt l) = Some c -> greatest P l c.
Proof. intros E. apply (greatest_ext P (sort_desc lt l)); [intros x; apply sort_desc_In|now apply find_sorted_greatest]. Qed.
End Greatest.

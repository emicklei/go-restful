(* NegotiateProofs.v — C05: which representation Response.EntityWriter chooses: the ranking of the Accept ranges, the
   writer for the best one, and that optional whitespace in the header does not change what a range means *)
From Model Require Import Str Sexp Table Curly DetectRoute Negotiate.
From Proofs Require Import StrFacts SortFacts.
From Coq Require Import Lia Sorting.Sorted.

Definition desc (l : list (str * Z)) : Prop := StronglySorted (fun a b => (snd b <= snd a)%Z) l.

Lemma sort_ranges_snoc l e : sort_ranges (l ++ [e]) = insert_mime (sort_ranges l) e.
Proof. apply fold_left_app. Qed.

(* sortedMimes is the routers' insertion sort (SortFacts), by quality *)
Lemma insert_mime_insert_desc l e : insert_mime l e = insert_desc (fun a b => Z.ltb (snd a) (snd b)) e l.
Proof. induction l as [|x l IH]; cbn; [reflexivity|]. now rewrite IH. Qed.

Lemma sort_ranges_sort_desc l : sort_ranges l = sort_desc (fun a b => Z.ltb (snd a) (snd b)) l.
Proof.
  induction l as [|e l IH] using rev_ind; [reflexivity|]. now rewrite sort_ranges_snoc, sort_desc_snoc, insert_mime_insert_desc, IH.
Qed.

Lemma sort_ranges_desc l : desc (sort_ranges l).
Proof. rewrite sort_ranges_sort_desc. apply sort_desc_sorted_by; intros x y; rewrite ?Z.ltb_lt, ?Z.ltb_ge; lia. Qed.

(* ranking: the first range, in sortedMimes' order, that selects something is the range of
   greatest quality among those that select something, the earliest of them on ties *)
Section Ranking.
Variable P : str * Z -> bool.          (* "this range selects a writer" *)

Definition best_step (b : option (str * Z)) (e : str * Z) : option (str * Z) :=
  if P e then match b with
              | None => Some e
              | Some x => if Z.ltb (snd x) (snd e) then Some e else Some x
              end
  else b.
Definition best (ranges : list (str * Z)) : option (str * Z) := fold_left best_step ranges None.

Lemma find_insert l e : desc l -> find P (insert_mime l e) = best_step (find P l) e.
Proof.
  unfold desc, best_step. induction 1 as [|y l Hl IH Hy]; cbn; [reflexivity|].
  destruct (Z.ltb (snd y) (snd e)) eqn:E; cbn.
  - destruct (P y); [now rewrite E|].
    (* e goes first; what is found further on is no higher than y, so lower than e *)
    destruct (find P l) as [x|] eqn:F; [|reflexivity].
    apply find_some in F as [Hin _]. rewrite Forall_forall in Hy. specialize (Hy x Hin).
    apply Z.ltb_lt in E. now rewrite (proj2 (Z.ltb_lt (snd x) (snd e))) by lia.
  - destruct (P y); [|exact IH]. rewrite E. now destruct (P e).
Qed.

Lemma best_snoc l e : best (l ++ [e]) = best_step (best l) e.
Proof. apply fold_left_app. Qed.

Theorem find_sorted_is_best ranges : find P (sort_ranges ranges) = best ranges.
Proof.
  induction ranges as [|e l IH] using rev_ind; [reflexivity|].
  now rewrite sort_ranges_snoc, best_snoc, find_insert, IH by apply sort_ranges_desc.
Qed.

Theorem best_spec ranges :
  match best ranges with
  | None => forall e, In e ranges -> P e = false
  | Some r => In r ranges /\ P r = true /\ forall e, In e ranges -> P e = true -> (snd e <= snd r)%Z
  end.
Proof.
  apply (argmax_spec P snd best_step). intros [x|] e; unfold best_step, argmax_step; now destruct (P e).
Qed.

Lemma fold_best_keep r post :
  (forall e, In e post -> P e = true -> (snd e <= snd r)%Z) -> fold_left best_step post (Some r) = Some r.
Proof.
  induction post as [|e post IH]; intros Hpost; cbn [fold_left]; [reflexivity|].
  replace (best_step (Some r) e) with (Some r); [apply IH; intros x Hx; apply Hpost; now right|].
  unfold best_step. destruct (P e) eqn:Pe; [|reflexivity].
  now rewrite (proj2 (Z.ltb_ge (snd r) (snd e))) by (apply Hpost; [now left|exact Pe]).
Qed.

Theorem best_earliest pre r post :
  P r = true -> (forall e, In e pre -> P e = true -> (snd e < snd r)%Z) ->
  (forall e, In e post -> P e = true -> (snd e <= snd r)%Z) ->
  best (pre ++ r :: post) = Some r.
Proof.
  intros Pr Hpre Hpost. unfold best. rewrite fold_left_app. cbn [fold_left]. fold (best pre).
  replace (best_step (best pre) r) with (Some r); [now apply fold_best_keep|].
  pose proof (best_spec pre) as Hp. unfold best_step. rewrite Pr. destruct (best pre) as [x|]; [|reflexivity].
  destruct Hp as (Hin & Px & _). now rewrite (proj2 (Z.ltb_lt (snd x) (snd r))) by now apply Hpre.
Qed.

End Ranking.

Lemma first_nonempty_find {A B} (f : A -> list B) l :
  first_nonempty (map f l) = match find (fun x => match f x with [] => false | _ => true end) l with
                             | Some x => f x | None => [] end.
Proof. induction l as [|x l IH]; cbn; [reflexivity|]. destruct (f x) eqn:E; [exact IH|now rewrite E]. Qed.

Lemma first_nonempty_pick {B} (m : str) (X : list B) l :
  first_nonempty (map (fun p => if str_eqb p m then X else []) l) = if mem m l then X else [].
Proof.
  induction l as [|p l IH]; cbn; [reflexivity|]. rewrite (str_eqb_sym m p).
  destruct (str_eqb p m); cbn; [|exact IH]. destruct X; [|reflexivity]. rewrite IH. now destruct (mem m l).
Qed.

Lemma accessor_keys_registered reg k : mem k reg = true -> accessor_keys reg k = [k].
Proof. unfold accessor_keys. now intros ->. Qed.

(* [reg]: the media types an EntityReaderWriter is registered for, the keys of entityAccessRegistry
   (RegisterEntityAccessor; application/json and application/xml from init).  The route's Produces list is not
   empty, each entry has an accessor of its own, and none is registered for the wildcard "*/*". *)
Definition premise (reg produces : list str) : Prop :=
  produces <> [] /\ (forall p, In p produces -> mem p reg = true) /\ mem (L "*/*") reg = false.

Lemma choose_premise reg produces m :
  premise reg produces ->
  choose reg produces m =
    if mem m produces then [m]
    else if str_eqb m (L "*/*") then match produces with p :: _ => [p] | [] => [] end else [].
Proof.
  intros (_ & Hreg & _). unfold choose. rewrite first_nonempty_pick. destruct (mem m produces) eqn:Em.
  - now rewrite accessor_keys_registered by (apply Hreg; now apply mem_In).
  - destruct (str_eqb m (L "*/*")); [|reflexivity]. destruct produces as [|p l]; [reflexivity|]. cbn.
    now rewrite accessor_keys_registered by (apply Hreg; now left).
Qed.

Lemma drop_last_empty_sub l x : In x (drop_last_empty l) -> In x l.
Proof.
  induction l as [|y l IH]; cbn; [tauto|]. destruct l as [|z l'].
  - destruct y; cbn; tauto.
  - intros [H|H]; [now left|right; now apply IH].
Qed.
Lemma header_elems_sub v x : In x (header_elems v) -> In x (split comma v).
Proof.
  unfold header_elems. destruct (split comma v) as [|a [|b l]]; try tauto. apply drop_last_empty_sub.
Qed.

Section Writer.
Variable qrank : str -> option Z.

Definition selects (reg produces : list str) (r : str * Z) : bool :=
  match choose reg produces (fst r) with [] => false | _ => true end.

Theorem entity_writer_is_best reg produces dflt accept0 r :
  best (selects reg produces) (parsed_ranges qrank (match accept0 with [] => L "*/*" | _ => accept0 end)) = Some r ->
  selects reg produces r = true /\ entity_writer qrank reg produces dflt accept0 = choose reg produces (fst r).
Proof.
  intros Hb. epose proof (best_spec (selects reg produces) _) as H. rewrite Hb in H. destruct H as (_ & Hs & _). split; [exact Hs|].
  unfold entity_writer, sorted_mimes. rewrite (first_nonempty_find (fun r => choose reg produces (fst r))).
  change (fun x : str * Z => match choose reg produces (fst x) with [] => false | _ => true end) with (selects reg produces).
  rewrite find_sorted_is_best, Hb. unfold selects in Hs. now destruct (choose reg produces (fst r)).
Qed.

Theorem entity_writer_sound reg produces dflt accept0 r :
  premise reg produces ->
  best (selects reg produces) (parsed_ranges qrank (match accept0 with [] => L "*/*" | _ => accept0 end)) = Some r ->
  exists k, entity_writer qrank reg produces dflt accept0 = [k] /\ In k produces /\ mem k reg = true /\
            (k = fst r \/ (fst r = L "*/*" /\ exists rest, produces = k :: rest)).
Proof.
  intros Hp Hb. destruct (entity_writer_is_best reg produces dflt accept0 r Hb) as [Hsel ->].
  unfold selects in Hsel. rewrite (choose_premise reg produces (fst r) Hp) in *. destruct Hp as (_ & Hreg & _).
  destruct (mem (fst r) produces) eqn:Em.
  - apply mem_In in Em. exists (fst r). repeat split; auto.
  - destruct (str_eqb_spec (fst r) (L "*/*")) as [Es|_]; [|discriminate].
    destruct produces as [|p rest]; [discriminate|]. exists p. repeat split; [now left|apply Hreg; now left|].
    right. split; [exact Es|eauto].
Qed.

Lemma parse_range_media e m q : parse_range qrank e = Some (m, q) -> m = media_of e.
Proof.
  unfold parse_range, media_of. rewrite <- hd_split.
  destruct (split semi e) as [|h params]; [discriminate|]. cbn [hd].
  destruct (find_q qrank params); intros H; try discriminate; now injection H as <- _.
Qed.

Definition all_q_parse (accept : str) : Prop :=
  forall e, In e (split comma accept) -> parse_range qrank e <> None.

(* a media type that matchesAccept (route.go) lets through for these Produces selects a writer *)
Lemma accepted_selects reg produces m q :
  premise reg produces ->
  str_eqb m (L "*/*") || existsb (fun p => str_eqb p (L "*/*") || str_eqb p m) produces = true ->
  selects reg produces (m, q) = true.
Proof.
  intros Hp Hm. unfold selects. cbn [fst]. rewrite (choose_premise reg produces m Hp). destruct Hp as (Hne & Hreg & Hstar).
  apply orb_true_iff in Hm as [->%str_eqb_eq|Hm].
  - destruct (mem (L "*/*") produces); [reflexivity|]. destruct produces; [now contradiction Hne|reflexivity].
  - apply existsb_exists in Hm as (p & Hpin & [->%str_eqb_eq| ->%str_eqb_eq]%orb_true_iff).
    + rewrite (Hreg _ Hpin) in Hstar. discriminate Hstar.
    + apply mem_In in Hpin. now rewrite Hpin.
Qed.

Theorem admitted_never_406 reg produces dflt accept0 (rt : route) :
  premise reg produces -> r_produces rt = produces ->
  let accept := match accept0 with [] => L "*/*" | _ => accept0 end in
  all_q_parse accept -> matches_accept rt accept = true ->
  exists k, entity_writer qrank reg produces dflt accept0 = [k] /\ In k produces /\ mem k reg = true.
Proof.
  intros Hp Hrt accept Hq Hadm.
  (* the element that matchesAccept took parses to a range, and that range selects *)
  unfold matches_accept in Hadm. apply existsb_exists in Hadm as (e & He%header_elems_sub & Hm). rewrite Hrt in Hm.
  destruct (parse_range qrank e) as [[m q]|] eqn:Ep; [|now contradiction (Hq e He)].
  rewrite <- (parse_range_media e m q Ep) in Hm. apply (accepted_selects reg produces m q Hp) in Hm.
  assert (Hin : In (m, q) (parsed_ranges qrank accept)) by (apply in_flat_map; exists e; rewrite Ep; split; [exact He|now left]).
  (* so there is a best one *)
  pose proof (best_spec (selects reg produces) (parsed_ranges qrank accept)) as H.
  destruct (best _ _) as [r|] eqn:Eb.
  - destruct (entity_writer_sound reg produces dflt accept0 r Hp Eb) as (k & E & A & B & _). eauto.
  - rewrite (H _ Hin) in Hm. discriminate Hm.
Qed.

End Writer.

(* optional whitespace around "," ";" "=" does not change what a range means *)
Definition spaces (s : str) : Prop := Forall (fun c => c = space) s.
Definition no_char (c : ascii) (s : str) : Prop := ~ In c s.

Lemma no_char_app3 c a m b : no_char c a -> no_char c m -> no_char c b -> no_char c (a ++ m ++ b).
Proof. intros Ha Hm Hb [H|[H|H]%in_app_or]%in_app_or; auto. Qed.

Lemma spaces_no_char c s : c <> space -> spaces s -> no_char c s.
Proof. intros Hc Hs Hin. apply Hc. exact (proj1 (Forall_forall _ _) Hs c Hin). Qed.

Lemma trim_left_spaces a s : spaces a -> trim_left space (a ++ s) = trim_left space s.
Proof. induction 1 as [|c a -> Ha IH]; [reflexivity|exact IH]. Qed.

Lemma trim_left_nospace s : (match s with c :: _ => c <> space | [] => True end) -> trim_left space s = s.
Proof. destruct s as [|c s]; [reflexivity|]. cbn. intros H. now destruct (Ascii.eqb_spec c space). Qed.

Theorem trim_ows a m b :
  spaces a -> spaces b ->
  (match m with c :: _ => c <> space | [] => True end) ->
  (match rev m with c :: _ => c <> space | [] => True end) ->
  trim space (a ++ m ++ b) = m.
Proof.
  intros Ha Hb Hm1 Hm2. unfold trim, trim_right. rewrite trim_left_spaces by exact Ha.
  destruct m as [|c m'].
  - cbn [app]. rewrite <- (app_nil_r b). now rewrite trim_left_spaces.
  - rewrite (trim_left_nospace ((c :: m') ++ b)) by exact Hm1.
    rewrite rev_app_distr, trim_left_spaces by (now apply Forall_rev).
    rewrite (trim_left_nospace (rev (c :: m'))) by exact Hm2. apply rev_involutive.
Qed.

Lemma split_eq_app k v : no_char equals k -> split_eq (k ++ equals :: v) = Some (k, v).
Proof.
  intros Hk. unfold split_eq. rewrite index_char_app_notin by now apply notin_existsb.
  now rewrite firstn_app_l, skipn_app_cons.
Qed.

Lemma find_q_others qrank others rest :
  Forall (fun p => match split_eq p with Some (k, _) => trim space k <> L "q" | None => True end) others ->
  find_q qrank (others ++ rest) = find_q qrank rest.
Proof.
  induction 1 as [|p l Hp _ IH]; cbn [app find_q]; [reflexivity|].
  destruct (split_eq p) as [[k w]|]; [|exact IH]. now rewrite (proj2 (str_eqb_neq _ _) Hp).
Qed.

Lemma find_q_q qrank k v rest :
  no_char equals k -> trim space k = L "q" ->
  find_q qrank ((k ++ equals :: v) :: rest) = match qrank (trim space v) with Some z => QVal z | None => QBad end.
Proof. intros Hk Hq. cbn [find_q]. now rewrite split_eq_app, Hq by exact Hk. Qed.

(* a range "pre ;o1 ;o2 ... ; q = v": q padded by spaces, after parameters that are not q *)
Theorem parse_range_q qrank pre others a b v :
  no_char semi pre -> Forall (no_char semi) others -> spaces a -> spaces b -> no_char semi v ->
  Forall (fun p => match split_eq p with Some (k, _) => trim space k <> L "q" | None => True end) others ->
  parse_range qrank (pre ++ concat (map (cons semi) others) ++ semi :: a ++ L "q" ++ b ++ equals :: v) =
    match qrank (trim space v) with Some z => Some (trim space pre, z) | None => None end.
Proof.
  intros Hpre Hoth Ha Hb Hsv Hnq. unfold parse_range. set (k := a ++ L "q" ++ b).
  assert (Hk : forall c, c <> space -> c <> "q"%char -> no_char c k).
  { intros c Hc Hq. apply no_char_app3; [now apply spaces_no_char| |now apply spaces_no_char]. intros [H|[]]. now apply Hq. }
  replace (concat _ ++ _) with (concat (map (cons semi) (others ++ [k ++ equals :: v])))
    by (rewrite map_app, concat_app; unfold k; cbn; now rewrite <- !app_assoc, app_nil_r).
  rewrite split_seps, find_q_others, find_q_q; trivial.
  - now destruct (qrank (trim space v)).
  - apply Hk; discriminate.
  - apply trim_ows; trivial; discriminate.
  - apply Forall_app. split; [exact Hoth|]. constructor; [|constructor].
    intros [H|[H|H]]%in_app_or; [revert H; apply Hk; discriminate|discriminate|now apply Hsv].
Qed.

Lemma accessor_keys_single reg m : length (accessor_keys reg m) <= 1.
Proof.
  unfold accessor_keys. destruct (mem m reg); [cbn; auto|].
  destruct (sort_strs (filter (fun k => contains m k) reg)); cbn; auto.
Qed.

Lemma first_nonempty_single {A B} (f : A -> list B) l :
  (forall x, length (f x) <= 1) -> length (first_nonempty (map f l)) <= 1.
Proof. intros H. induction l as [|x l IH]; cbn; [auto|]. specialize (H x). now destruct (f x). Qed.

Lemma or_else_single {A} (x y : list A) :
  length x <= 1 -> length y <= 1 -> length (match x with [] => y | a :: l => a :: l end) <= 1.
Proof. now destruct x. Qed.

Lemma choose_single reg produces media : length (choose reg produces media) <= 1.
Proof.
  unfold choose. apply or_else_single.
  - apply first_nonempty_single. intros p. destruct (str_eqb p media); [apply accessor_keys_single|cbn; auto].
  - destruct (str_eqb media (L "*/*")); [|cbn; auto]. apply first_nonempty_single, accessor_keys_single.
Qed.

Theorem entity_writer_single qrank reg produces dflt accept0 :
  length (entity_writer qrank reg produces dflt accept0) <= 1.
Proof.
  unfold entity_writer.
  apply or_else_single; [apply first_nonempty_single; intros r; apply choose_single|].
  apply or_else_single; [apply accessor_keys_single|].
  destruct (str_eqb dflt MIME_JSON); [apply accessor_keys_single|].
  destruct (str_eqb dflt MIME_XML); [apply accessor_keys_single|].
  destruct (str_eqb dflt MIME_ZIP); [apply accessor_keys_single|].
  apply first_nonempty_single, accessor_keys_single.
Qed.

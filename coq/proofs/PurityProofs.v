(* PurityProofs.v — C19: what outlives a request — the event log so far, the provider's acquire / release counters, the number of
   recover-handler calls — is carried through serving unchanged and is never read: serving commutes with shifting it.
   Hence the answer to a request inside ANY history equals the answer on a fresh container. *)
From Model Require Import Str Http Router Dispatch.
From Proofs Require Import StrFacts DispatchProofs.

(* the part of the world a request starts from that earlier requests have written *)
Record world := { w_log : list str; w_acq : nat; w_rel : nat; w_rec : nat }.

Definition shift (w : world) (s : rstate) : rstate :=
  {| st_status := st_status s; st_hdr := st_hdr s; st_raw := st_raw s; st_comp := st_comp s;
     st_log := w_log w ++ st_log s; st_attrs := st_attrs s;
     st_acq := st_acq s + w_acq w; st_rel := st_rel s + w_rel w; st_recovered := st_recovered s + w_rec w;
     st_pretty := st_pretty s; st_upper := st_upper s |}.

Definition shift_res (w : world) (r : res) : res :=
  match r with Done s => Done (shift w s) | Panicked m s => Panicked m (shift w s) end.

Lemma shift_upd_log w s e : upd_log (shift w s) e = shift w (upd_log s e).
Proof. unfold upd_log, shift; cbn. now rewrite app_assoc. Qed.
Lemma shift_upd_attrs w s a : upd_attrs (shift w s) a = shift w (upd_attrs s a).
Proof. reflexivity. Qed.
Lemma shift_write_header w s n : write_header (shift w s) n = shift w (write_header s n).
Proof. now rewrite !write_header_eq. Qed.
Lemma shift_write_body w s b : write_body (shift w s) b = shift w (write_body s b).
Proof. now rewrite !write_body_eq. Qed.
Lemma shift_set_wrapper w s p u : set_wrapper (shift w s) p u = shift w (set_wrapper s p u).
Proof. reflexivity. Qed.
Lemma shift_install w c s : install c (shift w s) = shift w (install c s).
Proof. reflexivity. Qed.
Lemma shift_close_comp w s : close_comp (shift w s) = shift w (close_comp s).
Proof. rewrite !close_comp_eq. cbn [shift st_comp]. now destruct (st_comp s) as [[[c ch] [|]]|]. Qed.

Lemma shift_install_wanted w already enabled req s :
  install_wanted already enabled req (shift w s) = shift w (install_wanted already enabled req s).
Proof.
  unfold install_wanted. change (wants_compressed req (shift w s)) with (wants_compressed req s).
  destruct already, enabled; try reflexivity. destruct (wants_compressed req s); [apply shift_install|reflexivity].
Qed.
Lemma shift_enter w f s : enter f (shift w s) = shift w (enter f s).
Proof. unfold enter. now destruct (f_fresh f), (f_wrap f). Qed.
Lemma shift_leave w f s1 s2 : leave f (shift w s1) (shift w s2) = shift w (leave f s1 s2).
Proof. unfold leave. now destruct (f_fresh f), (f_wrap f). Qed.
Lemma shift_recover_entry w m s : recover_entry m (shift w s) = shift w (recover_entry m s).
Proof. unfold recover_entry, shift; cbn. now rewrite app_assoc. Qed.

Lemma shift_bind w r k k' :
  (forall s, k' (shift w s) = shift_res w (k s)) ->
  bind (shift_res w r) k' = shift_res w (bind r k).
Proof. intros H. destruct r; cbn; auto. Qed.

Lemma shift_closing w r : closing (shift_res w r) = shift_res w (closing r).
Proof. destruct r; cbn; now rewrite shift_close_comp. Qed.

Lemma shift_run_action w a s : run_action a (shift w s) = shift_res w (run_action a s).
Proof.
  destruct a; cbn [run_action shift_res]; rewrite <- ?shift_upd_log, ?shift_write_header, ?shift_write_body; reflexivity.
Qed.

Lemma shift_run_actions w l : forall s, run_actions l (shift w s) = shift_res w (run_actions l s).
Proof.
  induction l as [|a l IH]; intros s; cbn [run_actions]; [reflexivity|].
  rewrite shift_run_action. now apply shift_bind.
Qed.

Lemma shift_finish w f s : finish f (shift w s) = shift_res w (finish f s).
Proof. unfold finish. rewrite shift_run_actions. apply shift_bind. intros s3. cbn. now rewrite shift_upd_log. Qed.

Lemma shift_run_chain w fs target :
  (forall s, target (shift w s) = shift_res w (target s)) ->
  forall s, run_chain fs target (shift w s) = shift_res w (run_chain fs target s).
Proof.
  intros Ht. induction fs as [|f rest IH]; intros s; [apply Ht|].
  rewrite !run_chain_cons, shift_upd_log, shift_run_actions. apply shift_bind. intros s1.
  destruct (f_pass f); [|apply shift_finish].
  rewrite shift_enter, IH. apply shift_bind. intros s2. rewrite shift_leave. apply shift_finish.
Qed.

Lemma shift_recovering w cfg r : recovering cfg (shift_res w r) = shift_res w (recovering cfg r).
Proof.
  destruct r as [s|m s]; cbn [shift_res recovering]; [reflexivity|]. destruct (d_recover cfg); [|reflexivity].
  rewrite shift_recover_entry. apply shift_run_actions.
Qed.

Section WithOracles.
Variable O : oracles.

Lemma shift_write_service_error w e s : write_service_error e (shift w s) = shift_res w (write_service_error e s).
Proof. rewrite !write_service_error_eq. apply shift_run_actions. Qed.

Lemma shift_dispatch w cfg req already s :
  dispatch O cfg req already (shift w s) = shift_res w (dispatch O cfg req already s).
Proof.
  rewrite !dispatch_eq, <- shift_closing, <- shift_recovering. do 2 f_equal.
  rewrite !dispatch_body_eq. destruct (cond_panic_hit O cfg req); [reflexivity|].
  destruct (select_route O (d_table cfg) req) as [[sv r]|e].
  - rewrite shift_install_wanted.
    unfold serve_route. destruct (extract_parameters O (d_table cfg) sv r (rq_path req)); [|reflexivity].
    rewrite shift_upd_attrs. apply shift_run_chain. intros s1. unfold handler_target.
    change (st_attrs (shift w s1)) with (st_attrs s1). rewrite !shift_upd_log. apply shift_run_actions.
  - apply shift_run_chain. apply shift_write_service_error.
Qed.

Lemma shift_mux_target w cfg req already s :
  mux_target O cfg req already (shift w s) = shift_res w (mux_target O cfg req already s).
Proof.
  unfold mux_target. destruct (assoc (rq_path req) (d_plain cfg)) as [[wf script]|]; [|apply shift_dispatch].
  rewrite !handle_plain_eq, <- shift_closing. f_equal.
  change (has_comp (shift w s)) with (has_comp s). rewrite shift_install_wanted.
  apply shift_run_chain. apply shift_run_actions.
Qed.

(* the world a request finds is carried through and never read *)
Theorem serve_shift w cfg en req s :
  serve O cfg en req (shift w s) = shift_res w (serve O cfg en req s).
Proof.
  destruct en; [apply shift_dispatch|]. rewrite !serve_ServeHTTP_eq.
  rewrite shift_install_wanted.
  change (has_comp (shift w (install_wanted false true req s))) with (has_comp (install_wanted false true req s)).
  destruct (d_encoding cfg); [|apply shift_mux_target]. rewrite shift_mux_target. apply shift_closing.
Qed.

(* one element of a history: entry point, request, and the headers the underlying writer carries on arrival *)
Definition hreq : Type := (entry * request * headers)%type.

(* what the client and the handlers of ONE request observe: panic or not (and the value), status, headers, raw chunks,
   compressor contents, attributes left on the wrapper, and the events of this request *)
Definition answer (r : res) : option str * (option Z * headers * list str * option (coding * list str * bool) * list (str * str) * list str) :=
  let s := state_of r in
  (match r with Done _ => None | Panicked m _ => Some m end,
   (st_status s, st_hdr s, st_raw s, st_comp s, st_attrs s, st_log s)).

Definition world_of (s : rstate) : world :=
  {| w_log := st_log s; w_acq := st_acq s; w_rel := st_rel s; w_rec := st_recovered s |}.
Definition w0 : world := {| w_log := []; w_acq := 0; w_rel := 0; w_rec := 0 |}.

(* the recorder of a new request is fresh; log and counters go on from where the previous request left them *)
Definition start (w : world) (h : headers) : rstate := shift w (st0 h).

(* serve a history; returns every request's result (in the world it ran in) and the final world *)
Fixpoint serve_all (cfg : dcfg) (hs : list hreq) (w : world) : list (world * res) * world :=
  match hs with
  | [] => ([], w)
  | (en, req, h) :: rest =>
      let r := serve O cfg en req (start w h) in
      let '(out, wf) := serve_all cfg rest (world_of (state_of r)) in
      ((w, r) :: out, wf)
  end.

(* the answer as seen from the world the request started in: its own events only *)
Definition answer_in (w : world) (r : res) :=
  let '(p, (st, hd, raw, comp, attrs, log)) := answer r in
  (p, (st, hd, raw, comp, attrs, skipn (length (w_log w)) log)).

Lemma answer_in_shift w r : answer_in w (shift_res w r) = answer r.
Proof.
  unfold answer_in, answer. destruct r as [s|m s]; cbn; now rewrite skipn_app_l.
Qed.

Lemma serve_all_cons cfg en req h rest w :
  let r := serve O cfg en req (start w h) in
  fst (serve_all cfg ((en, req, h) :: rest) w) = (w, r) :: fst (serve_all cfg rest (world_of (state_of r))).
Proof. cbn [serve_all]. now destruct (serve_all cfg rest _). Qed.

(* C19, sequential part, in full: in every history, from every starting world, every request is answered exactly as
   it is answered alone on a fresh container *)
Theorem history_independent cfg hs : forall w i en req h,
  nth_error hs i = Some (en, req, h) ->
  exists wi r, nth_error (fst (serve_all cfg hs w)) i = Some (wi, r) /\
               answer_in wi r = answer (serve O cfg en req (st0 h)).
Proof.
  induction hs as [|[[en0 req0] h0] rest IH]; intros w i en req h Hi; [now destruct i|].
  rewrite serve_all_cons. destruct i as [|i]; cbn [nth_error] in *; [|exact (IH _ i en req h Hi)].
  injection Hi as -> -> ->. exists w, (serve O cfg en req (start w h)). split; [reflexivity|].
  unfold start. rewrite serve_shift. apply answer_in_shift.
Qed.

Corollary same_answer_in_any_history cfg hs hs' w w' i j en req h :
  nth_error hs i = Some (en, req, h) -> nth_error hs' j = Some (en, req, h) ->
  exists wi ri wj rj, nth_error (fst (serve_all cfg hs w)) i = Some (wi, ri) /\
                      nth_error (fst (serve_all cfg hs' w')) j = Some (wj, rj) /\
                      answer_in wi ri = answer_in wj rj.
Proof.
  intros Hi Hj.
  destruct (history_independent cfg hs w i en req h Hi) as (wi & ri & Ni & Ai).
  destruct (history_independent cfg hs' w' j en req h Hj) as (wj & rj & Nj & Aj).
  exists wi, ri, wj, rj. exact (conj Ni (conj Nj (eq_trans Ai (eq_sym Aj)))).
Qed.

Corollary same_request_same_answer cfg hs w i j en req h :
  nth_error hs i = Some (en, req, h) -> nth_error hs j = Some (en, req, h) ->
  exists wi ri wj rj, nth_error (fst (serve_all cfg hs w)) i = Some (wi, ri) /\
                      nth_error (fst (serve_all cfg hs w)) j = Some (wj, rj) /\
                      answer_in wi ri = answer_in wj rj.
Proof. apply same_answer_in_any_history. Qed.

End WithOracles.

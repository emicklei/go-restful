(* OrderProofs.v — C03, order independence.  Both routers sort their candidates by a strict order
   (SortFacts), so the first candidate that passes detectRoute's filters is the greatest passing
   one: the same for every registration order of the routes unless two passing candidates tie.
   Likewise the service: a greatest one (CurlyRouter by a fold, RouterJSR311 by a sort). *)
From Model Require Import Str Http Template Table Curly DetectRoute Jsr311 Router.
From Spec Require Import RouteSpec RankSpec.
From Proofs Require Import StrFacts SortFacts RouterProofs OutcomeProofs RankProofs RankRouteProofs FrameProofs JsrProofs.
From Coq Require Import Lia Permutation Sorted.

Lemma str_ltb_irrefl a : str_ltb a a = false.
Proof. destruct (str_ltb a a) eqn:E; [|reflexivity]. now rewrite (proj1 str_ltb_strict _ _ E) in E. Qed.

Section StrictSort.
Context {X : Type} (lt : X -> X -> bool).
Hypothesis lt_asym : forall a b, lt a b = true -> lt b a = false.
Hypothesis lt_trans : forall a b c, lt a b = true -> lt b c = true -> lt a c = true.

Definition nlt (a b : X) : Prop := lt a b = false.

Lemma sort_desc_ssorted l : StronglySorted nlt (sort_desc lt l).
Proof. exact (sort_desc_nlt lt lt_asym lt_trans l). Qed.

Lemma find_sorted_max (P : X -> bool) l c :
  StronglySorted nlt l -> find P l = Some c ->
  P c = true /\ In c l /\ forall c1, In c1 l -> P c1 = true -> lt c c1 = false \/ c1 = c.
Proof.
  intros Hs E. destruct (find_sorted nlt P l c Hs E) as (Hp & Hin & Hmax). split; [exact Hp|]. split; [exact Hin|].
  intros c1 H1 Hp1. destruct (Hmax c1 H1 Hp1); auto.
Qed.

Theorem sorted_find_perm (P : X -> bool) l l' :
  Permutation l l' ->
  (forall a b, In a l -> In b l -> P a = true -> P b = true -> lt a b = false -> lt b a = false -> a = b) ->
  find P (sort_desc lt l) = find P (sort_desc lt l').
Proof.
  intros Hperm Hcmp.
  assert (Hin : forall x, In x l' <-> In x l) by (intros x; split; apply Permutation_in; [symmetry|]; exact Hperm).
  destruct (find P (sort_desc lt l)) as [c|] eqn:E; destruct (find P (sort_desc lt l')) as [c'|] eqn:E'.
  - (* both are greatest in l, so they tie *)
    apply (find_sorted_greatest_of lt lt_asym lt_trans) in E, E'. apply (greatest_ext lt P l' l _ Hin) in E'.
    destruct E as (? & ? & Hm), E' as (? & ? & Hm'). f_equal. apply Hcmp; auto.
  - apply find_some in E as [Hc Hp]. rewrite (find_none _ _ E' c) in Hp; [discriminate|]. apply sort_desc_In, Hin. now apply sort_desc_In in Hc.
  - apply find_some in E' as [Hc Hp]. rewrite (find_none _ _ E c') in Hp; [discriminate|]. apply sort_desc_In, Hin. now apply sort_desc_In in Hc.
  - reflexivity.
Qed.
End StrictSort.

Lemma detect_route_perm l l' req :
  Permutation l l' -> find (passes req) l = find (passes req) l' ->
  detect_equiv (detect_route l req) (detect_route l' req).
Proof.
  intros Hp Hf. pose proof (detect_route_spec l req) as S. pose proof (detect_route_spec l' req) as S'.
  fold (passes req) in S, S'. rewrite <- Hf in S'.
  destruct (find (passes req) l) as [r|]; [now rewrite S, S'|]. destruct S as [e S], S' as [e' S'].
  pose proof (detect_route_meets l req) as M. pose proof (detect_route_meets l' req) as M'.
  rewrite <- (spec_cascade_perm l l' req _ Hp) in M'. rewrite S in M |- *. rewrite S' in M' |- *.
  exact (meets_same _ (RError e) (RError e') M M').
Qed.

(* Route level, either router: a service and a copy of it with its routes registered in another order give every
   request the same answer, provided no two routes of one method have the same path. *)
Section RouteOrder.
Context {C : Type} (lt : C -> C -> bool) (route_of : C -> route) (path_of : C -> str) (cand : service -> route -> list C).
Hypothesis lt_asym : forall a b, lt a b = true -> lt b a = false.
Hypothesis lt_trans : forall a b c, lt a b = true -> lt b c = true -> lt a c = true.
Hypothesis lt_tie : forall a b, lt a b = false -> lt b a = false -> path_of a = path_of b.
Hypothesis cand_single : forall w r c, In c (cand w r) -> cand w r = [c] /\ route_of c = r /\ path_of c = route_path w r.
Hypothesis cand_root : forall w w' r, s_root w = s_root w' -> cand w r = cand w' r.

Theorem routes_order_independent w w' req :
  svc_perm w w' -> NoDup (map (route_key w) (s_routes w)) ->
  detect_equiv (detect_route (map route_of (sort_desc lt (flat_map (cand w) (s_routes w)))) req)
               (detect_route (map route_of (sort_desc lt (flat_map (cand w') (s_routes w')))) req).
Proof.
  intros [Eroot Hperm] Hnd. rewrite <- (flat_map_ext _ _ (fun r => cand_root w w' r Eroot)).
  assert (Hp : Permutation (flat_map (cand w) (s_routes w)) (flat_map (cand w) (s_routes w'))) by now apply Permutation_flat_map.
  apply detect_route_perm; [apply Permutation_map; now rewrite !sort_desc_perm|].
  rewrite !find_map. f_equal. apply (sorted_find_perm lt lt_asym lt_trans); [exact Hp|].
  intros a b Ha Hb Pa Pb Hab Hba.
  apply in_flat_map in Ha as (ra & Hra & Hca). apply in_flat_map in Hb as (rb & Hrb & Hcb).
  destruct (cand_single _ _ _ Hca) as (Ea & Ra & Pa'). destruct (cand_single _ _ _ Hcb) as (Eb & Rb & Pb').
  (* a tie: the same path, and the same method since both pass, hence the same route *)
  assert (E : ra = rb).
  { apply (NoDup_map_inj (route_key w) (s_routes w)); try assumption. unfold route_key.
    rewrite <- Pa', <- Pb', (lt_tie a b Hab Hba).
    rewrite Ra in Pa. rewrite Rb in Pb. now rewrite (passes_method _ _ Pa), (passes_method _ _ Pb). }
  rewrite <- E, Ea in Eb. injection Eb as <-. reflexivity.
Qed.
End RouteOrder.

Section Order.
Variable O : oracles.

Theorem curly_routes_order_independent w w' qts req :
  svc_perm w w' -> NoDup (map (route_key w) (s_routes w)) ->
  detect_equiv (detect_route (map cc_route (curly_select_routes O w qts)) req)
               (detect_route (map cc_route (curly_select_routes O w' qts)) req).
Proof.
  apply (routes_order_independent cc_lt cc_route cc_path (fun w => cand_of O w qts)).
  - exact cc_lt_asym.
  - exact cc_lt_trans.
  - intros a b H1 H2. now injection (cc_lt_tie a b H1 H2).
  - intros v. apply cand_of_single.
  - intros v v'. apply cand_of_root.
Qed.

Theorem jsr_routes_order_independent w w' fin req :
  svc_perm w w' -> NoDup (map (route_key w) (s_routes w)) ->
  detect_equiv (detect_route (map rc_route (jsr_select_routes O w fin)) req)
               (detect_route (map rc_route (jsr_select_routes O w' fin)) req).
Proof.
  apply (routes_order_independent rc_lt rc_route rc_path (fun w => jcand_of O w fin)).
  - exact rc_lt_asym.
  - exact rc_lt_trans.
  - intros a b H1 H2. now injection (rc_lt_tie a b H1 H2).
  - intros v. apply jcand_of_single.
  - intros v v'. apply jcand_of_root.
Qed.

(* Service level.  [tbl_perm] read the other way round, services first: then the premises, which speak of the first
   table, meet the step that needs them (each router's [_perm] lemma), and re-ordering routes keeps the roots, which
   is all that detection looks at (FrameProofs' [_rel] lemmas). *)
Lemma Forall2_flip {A B} (R : A -> B -> Prop) l l' : Forall2 R l l' -> Forall2 (fun b a => R a b) l' l.
Proof. induction 1; constructor; assumption. Qed.

Lemma tbl_perm_split t t' :
  tbl_perm t t' -> exists l, Permutation (t_services t) l /\ Forall2 svc_perm l (t_services t').
Proof.
  intros (l & Hf & Hp). destruct (Permutation_Forall2 Hp (Forall2_flip _ _ _ Hf)) as (l0 & Hp0 & Hf0).
  exists l0. split; [exact Hp0|exact (Forall2_flip _ _ _ Hf0)].
Qed.

Lemma detect_web_service_perm qts l l' :
  Permutation l l' -> no_tie O qts l -> detect_web_service O qts l = detect_web_service O qts l'.
Proof.
  intros Hp Hnt. pose proof (fun x => Permutation_in x Hp) as Hin. pose proof (fun x => Permutation_in x (Permutation_sym Hp)) as Hin'.
  pose proof (detect_web_service_spec O qts l) as S. pose proof (detect_web_service_spec O qts l') as S'.
  destruct (detect_web_service O qts l) as [w|], (detect_web_service O qts l') as [w'|].
  - (* each is a claiming service of greatest score in both lists: they tie *)
    destruct S as (Hi & Hc & Hmax), S' as (Hi' & Hc' & Hmax'). f_equal. apply Hnt; auto. apply Nat.le_antisymm; auto.
  - destruct S as (Hi & Hc & _). now rewrite (S' w (Hin w Hi)) in Hc.
  - destruct S' as (Hi' & Hc' & _). now rewrite (S w' (Hin' w' Hi')) in Hc'.
  - reflexivity.
Qed.

Lemma detect_web_service_tbl_perm t t' qts :
  tbl_perm t t' -> no_tie O qts (t_services t) ->
  match detect_web_service O qts (t_services t), detect_web_service O qts (t_services t') with
  | Some w, Some w' => svc_perm w w'
  | None, None => True
  | _, _ => False
  end.
Proof.
  intros (l & Hp & Hf)%tbl_perm_split Hnt. rewrite (detect_web_service_perm qts _ l Hp Hnt).
  exact (detect_web_service_rel O svc_perm qts l _ (fun w w' H => proj1 H) Hf).
Qed.

Definition dcand_of (path : str) (w : service) : list disp_cand :=
  let pe := path_expression (s_root w) in
  match jsr_match O (pe_toks pe) path with
  | Some (caps, fin) =>
      [{| dc_ws := w; dc_final := fin; dc_matches := S (S (List.length caps)) + pe_groups pe;
          dc_literal := pe_literal pe; dc_nondef := pe_vars pe |}]
  | None => []
  end.

Lemma dcand_of_single path w c : In c (dcand_of path w) ->
  dcand_of path w = [c] /\ dc_ws c = w /\ jsr_key O path (s_root w) = Some (dc_matches c, dc_literal c, dc_nondef c).
Proof.
  unfold dcand_of, jsr_key. destruct (jsr_match O (pe_toks (path_expression (s_root w))) path) as [[caps fin]|]; [|contradiction].
  intros [<-|[]]. auto.
Qed.

Lemma dcand_of_root path w w' c c' :
  s_root w = s_root w' -> In c (dcand_of path w) -> In c' (dcand_of path w') ->
  dc_matches c = dc_matches c' /\ dc_literal c = dc_literal c' /\ dc_nondef c = dc_nondef c'.
Proof.
  intros E H H'. apply dcand_of_single in H as (_ & _ & K). apply dcand_of_single in H' as (_ & _ & K').
  rewrite E, K' in K. injection K as <- <- <-. auto.
Qed.

(* the head of the sorted candidates, written as a [find] for sorted_find_perm and find_sorted_greatest_of *)
Lemma detect_dispatcher_find path wss :
  detect_dispatcher O path wss
  = option_map (fun c => (dc_ws c, dc_final c)) (find (fun _ => true) (sort_desc dc_lt (flat_map (dcand_of path) wss))).
Proof.
  unfold detect_dispatcher. change (dispatcher_cands O path wss) with (flat_map (dcand_of path) wss). now destruct (sort_desc _ _).
Qed.

(* detectDispatcher in the shape of RankProofs.detect_web_service_spec *)
Lemma detect_dispatcher_spec path wss :
  match detect_dispatcher O path wss with
  | Some (w, _) => In w wss /\ exists c, In c (dcand_of path w) /\
                   forall w' c', In w' wss -> In c' (dcand_of path w') -> dc_lt c c' = false
  | None => forall w, In w wss -> dcand_of path w = []
  end.
Proof.
  rewrite detect_dispatcher_find. destruct (find _ _) as [c|] eqn:E; cbn [option_map].
  - apply (find_sorted_greatest_of dc_lt dc_lt_asym dc_lt_trans) in E as (Hc & _ & Hmax).
    apply in_flat_map in Hc as (w & Hw & Hc). rewrite (proj1 (proj2 (dcand_of_single _ _ _ Hc))). split; [exact Hw|].
    exists c. split; [exact Hc|]. intros w' c' Hw' Hc'. apply Hmax; [|reflexivity]. apply in_flat_map. eauto.
  - intros w Hw. destruct (dcand_of path w) as [|c l] eqn:Ec; [reflexivity|].
    discriminate (find_none _ _ E c). apply sort_desc_In, in_flat_map. exists w. split; [exact Hw|]. rewrite Ec. now left.
Qed.

Lemma detect_dispatcher_perm path l l' :
  Permutation l l' -> NoDup (map s_root l) -> jsr_no_tie O path l ->
  detect_dispatcher O path l = detect_dispatcher O path l'.
Proof.
  intros Hperm Hnd Hnt. rewrite !detect_dispatcher_find. f_equal.
  apply (sorted_find_perm dc_lt dc_lt_asym dc_lt_trans); [now apply Permutation_flat_map|].
  intros a b Ha Hb _ _ Hab Hba. pose proof (dc_lt_tie a b Hab Hba) as K. injection K as K1 K2 K3.
  apply in_flat_map in Ha as (wa & Hwa & Hca). apply in_flat_map in Hb as (wb & Hwb & Hcb).
  destruct (dcand_of_single _ _ _ Hca) as (Ea & _ & Ka). destruct (dcand_of_single _ _ _ Hcb) as (Eb & _ & Kb).
  (* equal keys: the same root, hence the same service *)
  rewrite <- K1, <- K2, <- K3 in Kb.
  assert (wa = wb) by (apply (NoDup_map_inj s_root l); eauto). subst wb.
  rewrite Ea in Eb. injection Eb as <-. reflexivity.
Qed.

Lemma detect_dispatcher_tbl_perm t t' path :
  tbl_perm t t' -> NoDup (map s_root (t_services t)) -> jsr_no_tie O path (t_services t) ->
  match detect_dispatcher O path (t_services t), detect_dispatcher O path (t_services t') with
  | Some (w, fin), Some (w', fin') => svc_perm w w' /\ fin = fin'
  | None, None => True
  | _, _ => False
  end.
Proof.
  intros (l & Hp & Hf)%tbl_perm_split Hnd Hnt. rewrite (detect_dispatcher_perm path _ l Hp Hnd Hnt).
  exact (detect_dispatcher_rel O svc_perm path l _ (fun w w' H => proj1 H) Hf).
Qed.

Lemma extract_parameters_root t t' w w' r p :
  t_router t = t_router t' -> s_root w = s_root w' -> extract_parameters O t w r p = extract_parameters O t' w' r p.
Proof.
  intros Hr Hs. unfold extract_parameters, curly_extract_parameters, jsr_extract_parameters, route_hcv, route_parts, route_path.
  now rewrite Hr, Hs.
Qed.

(* from the service and its candidates to the answer of dispatch, either router *)
Lemma related_candidates_same_answer t t' req :
  t_router t = t_router t' ->
  match candidates O t (rq_path req), candidates O t' (rq_path req) with
  | Some (w, l), Some (w', l') => svc_perm w w' /\ detect_equiv (detect_route l req) (detect_route l' req)
  | None, None => True
  | _, _ => False
  end ->
  routed_equiv_perm (route_request O t req) (route_request O t' req).
Proof.
  intros Hr H. unfold route_request. rewrite !select_route_candidates.
  destruct (candidates O t _) as [[w l]|], (candidates O t' _) as [[w' l']|]; try contradiction; [|exact Logic.I].
  destruct H as [Hs He]. destruct (detect_route l req) as [r|e], (detect_route l' req) as [r'|e']; cbn in He; try contradiction; [|exact He].
  subst r'. rewrite (extract_parameters_root t t' w w' r (rq_path req) Hr (proj1 Hs)).
  destruct (extract_parameters O t' w' r (rq_path req)); cbn; auto.
Qed.

(* C03, order independence, CurlyRouter: a table and any re-ordering of its services and of the
   routes inside them answer every request alike — same route function with the same
   parameters, or the same error with the same Allow set — when no two routes of one method in
   a service have the same path and no two claiming services tie on the score *)
Theorem curly_order_independent t t' req :
  t_router t = Curly -> t_router t' = Curly ->
  tbl_perm t t' ->
  (forall w, In w (t_services t) -> NoDup (map (route_key w) (s_routes w))) ->
  no_tie O (tokenize (rq_path req)) (t_services t) ->
  routed_equiv_perm (route_request O t req) (route_request O t' req).
Proof.
  intros Hr Hr' Hperm Hkeys Hnt. apply related_candidates_same_answer; [congruence|]. unfold candidates. rewrite Hr, Hr'.
  pose proof (detect_web_service_tbl_perm t t' _ Hperm Hnt) as Hd.
  destruct (detect_web_service O (tokenize (rq_path req)) (t_services t)) as [w|] eqn:E;
  destruct (detect_web_service O (tokenize (rq_path req)) (t_services t')) as [w'|]; try contradiction; [|exact Logic.I].
  split; [exact Hd|]. apply curly_routes_order_independent; [exact Hd|]. apply Hkeys. now apply detect_web_service_max in E.
Qed.

(* C03, order independence, RouterJSR311: for pairwise different roots, no two of which match with equal keys *)
Theorem jsr_order_independent t t' req :
  t_router t = Jsr311 -> t_router t' = Jsr311 ->
  tbl_perm t t' ->
  (forall w, In w (t_services t) -> NoDup (map (route_key w) (s_routes w))) ->
  NoDup (map s_root (t_services t)) -> jsr_no_tie O (rq_path req) (t_services t) ->
  routed_equiv_perm (route_request O t req) (route_request O t' req).
Proof.
  intros Hr Hr' Hperm Hkeys Hnd Hnt. apply related_candidates_same_answer; [congruence|]. unfold candidates. rewrite Hr, Hr'.
  pose proof (detect_dispatcher_tbl_perm t t' _ Hperm Hnd Hnt) as Hd.
  destruct (detect_dispatcher O (rq_path req) (t_services t)) as [[w fin]|] eqn:E;
  destruct (detect_dispatcher O (rq_path req) (t_services t')) as [[w' fin']|]; try contradiction; [|exact Logic.I].
  destruct Hd as [Hs <-]. split; [exact Hs|]. apply jsr_routes_order_independent; [exact Hs|].
  apply Hkeys. now apply detect_dispatcher_sound in E.
Qed.

(* the premises as the booleans C03_order_curly / C03_order_jsr are stated with *)
Lemma distinct_NoDup l : distinct l = true -> NoDup l.
Proof.
  induction l as [|x l IH]; [constructor|]. cbn. intros H. apply andb_true_iff in H as [Hx Hl].
  constructor; [|now apply IH]. intros Hin. apply mem_In in Hin. rewrite Hin in Hx. discriminate.
Qed.

Lemma keys_distinct_NoDup t : keys_distinct t = true ->
  forall w, In w (t_services t) -> NoDup (map (route_key w) (s_routes w)).
Proof. unfold keys_distinct. rewrite forallb_forall. intros H w Hw. apply distinct_NoDup, H, Hw. Qed.

(* [fold_left Nat.max _ 0] is the library's [list_max] *)
Lemma fold_max_le l n : fold_left Nat.max l 0 <= n <-> Forall (fun k => k <= n) l.
Proof. rewrite (fold_symmetric _ Nat.max_assoc 0 (fun y => Nat.max_comm 0 y)). apply list_max_le. Qed.

Lemma length_le1_eq {A} (l : list A) a b : List.length l <= 1 -> In a l -> In b l -> a = b.
Proof.
  destruct l as [|x [|y l]]; cbn; intros H Ha Hb.
  - contradiction.
  - destruct Ha as [<-|[]], Hb as [<-|[]]. reflexivity.
  - lia.
Qed.

Lemma top_unique_no_tie qts wss : top_unique O qts wss = true -> no_tie O qts wss.
Proof.
  unfold top_unique. set (cl := flat_map _ wss). set (best := fold_left Nat.max cl 0).
  intros H%Nat.leb_le w1 w2 H1 H2 C1 C2 Hs Hmax.
  (* w1 reaches the greatest score, so both are among the services that do *)
  assert (Eb : score O qts w1 = best).
  { apply Nat.le_antisymm.
    - pose proof (proj1 (fold_max_le cl best) (Nat.le_refl _)) as G. rewrite Forall_forall in G. apply G.
      apply in_flat_map. exists w1. rewrite C1. split; [exact H1|now left].
    - apply fold_max_le, Forall_forall. intros x (w3 & Hw3 & Hx)%in_flat_map.
      destruct (claims O qts w3) eqn:C3; [|contradiction]. destruct Hx as [<-|[]]. now apply Hmax. }
  apply (length_le1_eq _ w1 w2 H); apply filter_In; (split; [assumption|]);
    rewrite ?C1, ?C2, <- ?Hs, Eb; apply Nat.eqb_refl.
Qed.

Lemma key_eqb_refl k : key_eqb k k = true.
Proof. unfold key_eqb. now rewrite !Nat.eqb_refl. Qed.

Lemma jsr_keys_unique_sound path wss :
  jsr_keys_unique O path wss = true -> NoDup (map s_root wss) /\ jsr_no_tie O path wss.
Proof.
  unfold jsr_keys_unique. intros H. apply andb_true_iff in H as [Hd Hp]. split; [now apply distinct_NoDup|].
  intros w1 w2 k H1 H2 K1 K2.
  destruct (pairwise_In _ _ _ _ Hp H1 H2) as [->|[Hc|Hc]]; [reflexivity| |]; rewrite K1, K2, key_eqb_refl in Hc; discriminate Hc.
Qed.

End Order.

(* RankProofs.v — C03, service level: detectWebService keeps a claiming service of greatest score (an instance of
   StrFacts.argmax_spec), and computeWebserviceScore is a sum of per-position weights that rewards literals and length:
   of two claiming roots, one [finer] than the other scores strictly higher ([score_finer]). *)
From Model Require Import Str Http Template Table Curly.
From Spec Require Import RankSpec.
From Proofs Require Import StrFacts.
From Coq Require Import Lia.

Section P.
Variable O : oracles.

(* detectWebService keeps the first service with the strictly greatest score: [sc] is the score of [best], -1 before any *)
Lemma detect_ws_loop_fold qts wss : forall best sc,
  sc = match best with Some b => Z.of_nat (score O qts b) | None => (-1)%Z end ->
  detect_ws_loop O qts wss best sc = fold_left (argmax_step (claims O qts) (fun w => Z.of_nat (score O qts w))) wss best.
Proof.
  induction wss as [|x wss IH]; intros best sc ->; [reflexivity|]. cbn [detect_ws_loop fold_left].
  assert (E : argmax_step (claims O qts) (fun w => Z.of_nat (score O qts w)) best x =
              if claims O qts x && Z.ltb (match best with Some b => Z.of_nat (score O qts b) | None => (-1)%Z end)
                                         (Z.of_nat (score O qts x)) then Some x else best).
  { unfold argmax_step. destruct best; [reflexivity|]. now rewrite (proj2 (Z.ltb_lt (-1) _)) by lia. }
  rewrite E. unfold claims, score. destruct (compute_webservice_score O qts (tokenize (s_root x))) as [m s] eqn:Ex. cbn [fst snd].
  destruct (m && _); apply IH; [|reflexivity]. unfold score. now rewrite Ex.
Qed.

Theorem detect_web_service_spec qts wss :
  match detect_web_service O qts wss with
  | Some w => In w wss /\ claims O qts w = true /\ forall w', In w' wss -> claims O qts w' = true -> score O qts w' <= score O qts w
  | None => forall w, In w wss -> claims O qts w = false
  end.
Proof.
  unfold detect_web_service. rewrite (detect_ws_loop_fold qts wss None _ eq_refl).
  pose proof (argmax_spec (claims O qts) (fun w => Z.of_nat (score O qts w)) _ (fun _ _ => eq_refl) wss) as H.
  destruct (fold_left _ wss None) as [w|]; [|exact H].
  destruct H as (Hin & Hc & Hmax). split; [exact Hin|]. split; [exact Hc|]. intros w' Hin' Hc'. now apply Nat2Z.inj_le, Hmax.
Qed.

Theorem detect_web_service_max qts wss w :
  detect_web_service O qts wss = Some w ->
  In w wss /\ fst (compute_webservice_score O qts (tokenize (s_root w))) = true /\
  forall w', In w' wss -> fst (compute_webservice_score O qts (tokenize (s_root w'))) = true ->
             snd (compute_webservice_score O qts (tokenize (s_root w'))) <=
             snd (compute_webservice_score O qts (tokenize (s_root w))).
Proof. intros H. pose proof (detect_web_service_spec qts wss) as S. now rewrite H in S. Qed.

(* The score as a sum of per-position weights.  How root token [other] matches request token [each]:
   as a literal at its position (Some true), as a variable or because both are empty (Some false), or
   not at all *)
Definition tok_kind (each other : str) : option bool :=
  match each, other with
  | [], [] => Some false
  | _, _ =>
    if has_prefix other [lbrace] then
      match each with
      | [] => None
      | _ => match index_char other colon with
             | Some c => if fst (regular_matches_path_token O other c each) then Some false else None
             | None => Some false
             end
      end
    else if str_eqb each other then Some true else None
  end.

(* curly.go computeWebserviceScore: a literal at position i of n root tokens adds (n - i) * 10, a variable 1 *)
Definition kind_weight (n i : nat) (lit : bool) : nat := if lit then (n - i) * 10 else 1.

Lemma ws_score_loop_step n each qts other toks i score :
  ws_score_loop O n (each :: qts) (other :: toks) i score =
  match tok_kind each other with
  | Some k => ws_score_loop O n qts toks (S i) (score + kind_weight n i k)
  | None => (false, score)
  end.
Proof.
  cbn [ws_score_loop]. unfold tok_kind, kind_weight.
  destruct each as [|e er], other as [|o or].
  - now rewrite Nat.add_1_r.
  - destruct (has_prefix (o :: or) [lbrace]); reflexivity.
  - reflexivity.
  - destruct (has_prefix (o :: or) [lbrace]); [|now destruct (str_eqb _ _)].
    destruct (index_char _ colon); [destruct (fst _); [|reflexivity]|]; now rewrite Nat.add_1_r.
Qed.

(* the score of a claiming root as the sum of its weights; None when some position does not match *)
Fixpoint weights (n i : nat) (qts toks : list str) {struct toks} : option nat :=
  match toks with
  | [] => Some 0
  | other :: toks' =>
    match qts with
    | [] => None
    | each :: qts' =>
      match tok_kind each other, weights n (S i) qts' toks' with
      | Some k, Some b => Some (kind_weight n i k + b)
      | _, _ => None
      end
    end
  end.

Lemma ws_score_loop_weights n qts toks i score :
  fst (ws_score_loop O n qts toks i score) = true ->
  exists s, weights n i qts toks = Some s /\ snd (ws_score_loop O n qts toks i score) = score + s.
Proof.
  revert qts i score. induction toks as [|other toks IH]; intros qts i score.
  - exists 0. split; [reflexivity|cbn; lia].
  - destruct qts as [|each qts]; [discriminate|]. rewrite ws_score_loop_step. cbn [weights].
    destruct (tok_kind each other) as [k|]; [|discriminate].
    intros H. destruct (IH _ _ _ H) as (s & -> & ->). eexists. split; [reflexivity|lia].
Qed.

Lemma score_weights qts toks :
  fst (compute_webservice_score O qts toks) = true ->
  exists s, weights (List.length toks) 0 qts toks = Some s /\ snd (compute_webservice_score O qts toks) = s.
Proof.
  unfold compute_webservice_score. destruct (Nat.ltb (List.length qts) (List.length toks)); [discriminate|].
  intros H. destruct (ws_score_loop_weights _ _ _ _ _ H) as (s & Hs & Hsc). exists s. split; [exact Hs|]. rewrite Hsc. lia.
Qed.

(* a position inside the count weighs at least 1, and no less when the root is counted longer *)
Lemma kind_weight_pos n i k : i < n -> 1 <= kind_weight n i k.
Proof. destruct k; cbn [kind_weight]; nia. Qed.
Lemma kind_weight_mono n n' i k : n <= n' -> kind_weight n i k <= kind_weight n' i k.
Proof. destruct k; cbn [kind_weight]; nia. Qed.

(* a variable, with or without an expression, matches non-empty tokens only, with weight 1; a literal matches
   them with its positional weight *)
Lemma tok_kind_var q var k :
  has_prefix var [lbrace] = true -> tok_kind q var = Some k -> k = false /\ q <> [].
Proof.
  unfold tok_kind. intros Hv. destruct q, var; try discriminate Hv; rewrite Hv; [discriminate|].
  destruct (index_char _ colon); [destruct (fst _)|]; intros [= <-]; split; [reflexivity|discriminate|reflexivity|discriminate].
Qed.

Lemma tok_kind_lit q lit k :
  has_prefix lit [lbrace] = false -> q <> [] -> tok_kind q lit = Some k -> k = true.
Proof.
  unfold tok_kind. intros Hl Hq. destruct q; [congruence|]. rewrite Hl; (destruct (str_eqb _ _); [now intros [= <-]|discriminate]).
Qed.

(* [finer a b]: root [b] is root [a] with a literal in place of a variable at some positions, and with more tokens at the end *)
Inductive finer : list str -> list str -> Prop :=
| finer_nil ext : finer [] ext
| finer_same x a b : finer a b -> finer (x :: a) (x :: b)
| finer_lit var lit a b :
    has_prefix var [lbrace] = true -> has_prefix lit [lbrace] = false -> finer a b -> finer (var :: a) (lit :: b).

Lemma finer_app pre a b : finer a b -> finer (pre ++ a) (pre ++ b).
Proof. intros H. induction pre; [exact H|now apply finer_same]. Qed.

Lemma finer_length a b : finer a b -> List.length a <= List.length b.
Proof. induction 1; cbn [List.length]; lia. Qed.

(* position by position: the same token weighs no less under the longer count, a literal in place of a variable
   weighs at least 10 against 1, and every further token adds at least 1 *)
Lemma weights_finer a b : finer a b -> forall n n' i qts sa sb,
  n <= n' -> i + List.length b <= n' ->
  weights n i qts a = Some sa -> weights n' i qts b = Some sb -> sa <= sb /\ (a <> b -> sa < sb).
Proof.
  induction 1 as [ext|x a b _ IH|var lit a b Hv Hl _ IH]; intros n n' i qts sa sb Hn Hlen; cbn [weights List.length] in *.
  - intros [= <-] Hb. split; [lia|]. intros Hne. destruct ext as [|x ext]; [congruence|]. cbn [weights List.length] in *.
    destruct qts as [|q qts]; [discriminate|]. destruct (tok_kind q x) as [k|]; [|discriminate].
    destruct (weights n' (S i) qts ext); [|discriminate]. injection Hb as <-. pose proof (kind_weight_pos n' i k). lia.
  - destruct qts as [|q qts]; [discriminate|]. destruct (tok_kind q x) as [k|]; [|discriminate].
    destruct (weights n (S i) qts a) as [ra|] eqn:Ea; [|discriminate]. destruct (weights n' (S i) qts b) as [rb|] eqn:Eb; [|discriminate].
    intros [= <-] [= <-]. destruct (IH n n' (S i) qts ra rb Hn ltac:(lia) Ea Eb) as [Hle Hlt].
    pose proof (kind_weight_mono n n' i k Hn). split; [lia|]. intros Hne. enough (ra < rb) by lia. apply Hlt. congruence.
  - destruct qts as [|q qts]; [discriminate|].
    destruct (tok_kind q var) as [kv|] eqn:Ev; [|discriminate]. destruct (tok_kind q lit) as [kl|] eqn:El; [|discriminate].
    destruct (weights n (S i) qts a) as [ra|] eqn:Ea; [|discriminate]. destruct (weights n' (S i) qts b) as [rb|] eqn:Eb; [|discriminate].
    intros [= <-] [= <-]. destruct (IH n n' (S i) qts ra rb Hn ltac:(lia) Ea Eb) as [Hle _].
    destruct (tok_kind_var _ _ _ Hv Ev) as [-> Hq]. rewrite (tok_kind_lit _ _ _ Hl Hq El). cbn [kind_weight]. split; [nia|intros _; nia].
Qed.

(* C03, service level, in one statement: of two claiming roots, the finer one scores strictly higher *)
Theorem score_finer qts a b :
  finer a b -> a <> b ->
  fst (compute_webservice_score O qts a) = true -> fst (compute_webservice_score O qts b) = true ->
  snd (compute_webservice_score O qts a) < snd (compute_webservice_score O qts b).
Proof.
  intros Hf Hne H1 H2. destruct (score_weights _ _ H1) as (s1 & Hw1 & ->). destruct (score_weights _ _ H2) as (s2 & Hw2 & ->).
  exact (proj2 (weights_finer a b Hf _ _ 0 qts s1 s2 (finer_length a b Hf) (Nat.le_refl _) Hw1 Hw2) Hne).
Qed.

Theorem score_longer_root_beats_prefix qts root ext :
  ext <> [] ->
  fst (compute_webservice_score O qts root) = true ->
  fst (compute_webservice_score O qts (root ++ ext)) = true ->
  snd (compute_webservice_score O qts root) < snd (compute_webservice_score O qts (root ++ ext)).
Proof.
  intros Hext. apply score_finer.
  - rewrite <- (app_nil_r root) at 1. apply finer_app, finer_nil.
  - intros E. rewrite <- (app_nil_r root) in E at 1. apply app_inv_head in E. congruence.
Qed.

Theorem score_literal_beats_variable qts pre post lit var :
  has_prefix var [lbrace] = true -> has_prefix lit [lbrace] = false ->
  fst (compute_webservice_score O qts (pre ++ lit :: post)) = true ->
  fst (compute_webservice_score O qts (pre ++ var :: post)) = true ->
  snd (compute_webservice_score O qts (pre ++ var :: post)) <
  snd (compute_webservice_score O qts (pre ++ lit :: post)).
Proof.
  intros Hv Hl H1 H2. apply score_finer; [| |exact H2|exact H1].
  - apply finer_app, finer_lit; [exact Hv|exact Hl|]. rewrite <- (app_nil_r post). apply finer_app, finer_nil.
  - intros [= E]%app_inv_head. congruence.
Qed.

End P.

(* RankRouteProofs.v — C03, route level, both routers: among the routes of the chosen
   service that are eligible for the request, one whose template has a literal where
   another has a variable (same shape otherwise) is never passed over for that other.
   detectRoute answers the greatest passing candidate under the router's Less, and Less
   looks first at the number of literal segments (CurlyRouter: the static count of a
   verb-free template) or of literal characters (RouterJSR311). *)
From Model Require Import Str Http Template Table Curly DetectRoute Jsr311 Router.
From Spec Require Import RouteSpec RankSpec.
From Proofs Require Import StrFacts SortFacts CurlyProofs RouterProofs JsrProofs JsrOutcomeProofs.
From Coq Require Import Lia Btauto Sorted.

Lemma pairwise_In {A} (p : A -> A -> bool) l a b :
  pairwise p l = true -> In a l -> In b l -> a = b \/ p a b = true \/ p b a = true.
Proof.
  induction l as [|x l IH]; intros H Ha Hb; [contradiction|].
  cbn in H. apply andb_true_iff in H as [Hx Hl]. rewrite forallb_forall in Hx.
  destruct Ha as [<-|Ha], Hb as [<-|Hb]; auto.
Qed.

(* a Less that is monotone in a numeric key sorts that key into descending order *)
Section KeySort.
Context {X : Type} (lt : X -> X -> bool) (k : X -> nat).
Hypothesis lt_le : forall a b, lt a b = true -> k a <= k b.
Hypothesis lt_of : forall a b, k a < k b -> lt a b = true.

Definition desc (a b : X) : Prop := k b <= k a.

Lemma sort_desc_sorted l : StronglySorted desc (sort_desc lt l).
Proof.
  apply sort_desc_sorted_by; unfold desc.
  - intros x y H. now apply lt_le.
  - intros x y H. destruct (Nat.le_gt_cases (k x) (k y)) as [L|L]; [exact L|]. apply lt_of in L. congruence.
  - intros x y z H%lt_le. lia.
Qed.

End KeySort.

Definition passes (req : request) (r : route) : bool :=
  conds_hold r && str_eqb (rq_method req) (r_method r)
  && matches_content_type r (hget req H_ContentType)
  && matches_accept r (effective_accept req).

Lemma passes_method req r : passes req r = true -> r_method r = rq_method req.
Proof.
  unfold passes. intros H. apply andb_true_iff in H as [H _]. apply andb_true_iff in H as [H _].
  apply andb_true_iff in H as [_ H]. symmetry. now apply str_eqb_eq.
Qed.

Lemma detect_route_find routes req r : detect_route routes req = inl r -> find (passes req) routes = Some r.
Proof.
  intros H. pose proof (detect_route_spec routes req) as S. fold (passes req) in S.
  destruct (find (passes req) routes); [congruence|destruct S as [e S]; congruence].
Qed.

Lemma detect_route_first routes req r :
  detect_route routes req = inl r ->
  exists tl, filter (passes req) routes = r :: tl.
Proof.
  intros H%detect_route_find. rewrite find_filter_head in H.
  destruct (filter (passes req) routes) as [|r0 tl]; [discriminate H|exists tl; congruence].
Qed.

Lemma detect_sorted_greatest {C} (lt : C -> C -> bool) (f : C -> route) cs req r :
  (forall a b, lt a b = true -> lt b a = false) -> (forall a b c, lt a b = true -> lt b c = true -> lt a c = true) ->
  detect_route (map f (sort_desc lt cs)) req = inl r ->
  exists c, f c = r /\ greatest lt (fun c => passes req (f c)) (sort_desc lt cs) c.
Proof.
  intros asym trans H%detect_route_find. rewrite find_map in H.
  destruct (find _ (sort_desc lt cs)) as [c|] eqn:E; [|discriminate H]. exists c. split; [cbn [option_map] in H; congruence|].
  now apply find_sorted_greatest.
Qed.

Section P.
Variable O : oracles.

Definition count_lit (tpl : list vtok) : nat := List.length (filter is_lit tpl).

Lemma n_statics_no_verbs tpl : no_verbs tpl = true -> n_statics tpl = count_lit tpl.
Proof.
  unfold no_verbs, count_lit. induction tpl as [|t tpl IH]; [reflexivity|]. cbn [forallb filter]. intros [Hv Hn]%andb_true_iff.
  rewrite n_statics_cons, (IH Hn). unfold tok_statics. destruct (v_verb t); [discriminate Hv|]. now destruct (is_lit t).
Qed.

(* at least as specific: no fewer literals; and more, unless the converse holds too *)
Lemma tpl_ge_count a : forall b, tpl_ge a b = true ->
  count_lit b <= count_lit a /\ (tpl_ge b a = false -> count_lit b < count_lit a).
Proof.
  unfold count_lit. induction a as [|x a IH]; intros [|y b] H; try discriminate H; [split; [reflexivity|discriminate]|].
  cbn [tpl_ge filter] in *. apply andb_true_iff in H as [Hh Ht]. destruct (IH b Ht) as [Hle Hlt].
  destruct (is_lit y) eqn:Ey.
  - (* y is a literal: x is the same literal *)
    unfold is_lit in *. destruct (v_tk y); try discriminate Ey. destruct (v_tk x); try discriminate Hh.
    rewrite str_eqb_sym, Hh. cbn [List.length andb]. split; [lia|intros E; specialize (Hlt E); lia].
  - destruct (is_lit x); cbn [List.length andb]; split; try lia. intros E. specialize (Hlt E). lia.
Qed.

Lemma dominates_count a b : dominates a b = true -> count_lit b < count_lit a.
Proof. unfold dominates. intros [Hab Hba%negb_true_iff]%andb_true_iff. now apply (tpl_ge_count a b Hab). Qed.

Lemma matches_static w r qts pc sc :
  wf_route w r = true -> no_verbs (route_tpl w r) = true ->
  matches_route_by_path_tokens O (route_parts w r) qts (route_hcv w r) = Some (pc, sc) ->
  sc = count_lit (route_tpl w r).
Proof.
  intros Hwf Hnv H. rewrite (matches_route_spec O _ _ qts Hwf) in H. fold (route_tpl w r) in H.
  destruct (admits_path O _ qts); [|discriminate H]. injection H as _ <-. now apply n_statics_no_verbs.
Qed.

Lemma n_params_count tpl : n_params tpl + count_lit tpl = List.length tpl.
Proof.
  unfold count_lit. induction tpl as [|t tpl IH]; [reflexivity|]. rewrite n_params_cons. cbn [filter List.length].
  unfold tok_params. destruct (is_lit t); cbn [List.length]; lia.
Qed.

Lemma admits_passes w r req :
  admits O w r req = admits_path O (route_tpl w r) (tokenize (rq_path req)) && passes req r.
Proof. unfold admits, passes. btauto. Qed.

Lemma curly_cand_canonical w qts c :
  In c (curly_select_routes O w qts) -> wf_route w (cc_route c) = true -> c = ccand w (cc_route c).
Proof.
  intros (r & _ & Hc)%curly_select_routes_In Hwf. destruct (cand_of_single O _ _ _ _ Hc) as (_ & Er & _).
  rewrite Er in *. rewrite (cand_of_wf O w qts r Hwf) in Hc.
  destruct (admits_path O _ qts); [now destruct Hc as [<-|[]]|contradiction].
Qed.

Lemma curly_candidate w qts r :
  In r (s_routes w) -> wf_route w r = true -> admits_path O (route_tpl w r) qts = true ->
  In (ccand w r) (curly_select_routes O w qts).
Proof.
  intros Hr Hwf Ha. apply curly_select_routes_In. exists r. split; [exact Hr|]. rewrite (cand_of_wf O w qts r Hwf), Ha. now left.
Qed.

Lemma curly_selected_greatest t req w r :
  t_router t = Curly -> select_route O t req = inl (w, r) -> wf_route w r = true ->
  forall r1, In r1 (s_routes w) -> wf_route w r1 = true -> admits O w r1 req = true ->
    cc_lt (ccand w r) (ccand w r1) = false.
Proof.
  intros Ht H Hwf r1 Hin1 Hwf1 Had. apply select_route_inl in H. rewrite Ht in H. destruct H as [_ Hsel].
  rewrite admits_passes in Had. apply andb_true_iff in Had as [Hpath Hp1].
  apply (detect_sorted_greatest cc_lt cc_route _ _ _ cc_lt_asym cc_lt_trans) in Hsel as (c & <- & Hc & _ & Hmax).
  rewrite <- (curly_cand_canonical w _ c Hc Hwf). apply Hmax; [exact (curly_candidate w _ r1 Hin1 Hwf1 Hpath)|exact Hp1].
Qed.

(* C03, route level, CurlyRouter: Less looks at the static count first, so the answer has no fewer
   literal segments than any eligible route *)
Theorem curly_select_route_not_dominated t req w r2 :
  t_router t = Curly ->
  select_route O t req = inl (w, r2) ->
  forall r1, In r1 (s_routes w) ->
    wf_route w r1 = true -> wf_route w r2 = true ->
    no_verbs (route_tpl w r1) = true -> no_verbs (route_tpl w r2) = true ->
    admits O w r1 req = true ->
    dominates (route_tpl w r1) (route_tpl w r2) = false.
Proof.
  intros Ht H r1 Hin1 Hwf1 Hwf2 Hnv1 Hnv2 Had.
  pose proof (curly_selected_greatest t req w r2 Ht H Hwf2 r1 Hin1 Hwf1 Had) as Hmax.
  destruct (dominates _ _) eqn:Hdom; [|reflexivity]. apply dominates_count in Hdom.
  rewrite cc_lt_static in Hmax; [discriminate|]. cbn [cc_static ccand]. now rewrite !n_statics_no_verbs.
Qed.

End P.

(* RouterJSR311: the candidates are ordered by the literal characters of the route's own template
   first, so the same holds there. *)
Definition e_is_lit (e : etok) : bool := match e with ELit _ => true | _ => false end.
Fixpoint etpl_ge (a b : list etok) : bool :=
  match a, b with
  | [], [] => true
  | x :: a', y :: b' =>
      (match y with
       | ELit s' => match x with ELit s => str_eqb s s' | _ => false end
       | _ => true
       end) && etpl_ge a' b'
  | _, _ => false
  end.
Definition edominates (a b : list etok) : bool := etpl_ge a b && negb (etpl_ge b a).

Definition lit_chars (l : list etok) : nat :=
  fold_right (fun e a => match e with ELit s => List.length s + a | _ => a end) 0 l.
Definition lits_nonempty (l : list etok) : bool :=
  forallb (fun e => match e with ELit [] => false | _ => true end) l.

(* the other counts RouterJSR311 orders by, as functions of the expression's tokens *)
Definition e_nonlit (l : list etok) : nat := List.length (filter (fun e => negb (e_is_lit e)) l).
Definition groups_of_toks (l : list etok) : nat :=
  fold_right (fun e a => match e with ERx re => re_groups re + a | _ => a end) 0 l.

Lemma pe_literal_fold (ets : list (etok * option str)) acc :
  fold_left (fun a e => match fst e with ELit s => a + List.length s | _ => a end) ets acc
  = acc + lit_chars (map fst ets).
Proof.
  revert acc. induction ets as [|e ets IH]; intros acc; cbn [fold_left map lit_chars fold_right]; [lia|].
  rewrite IH. fold (lit_chars (map fst ets)). destruct (fst e); lia.
Qed.

Lemma pe_literal_sum template :
  pe_literal (path_expression template) = lit_chars (pe_toks (path_expression template)).
Proof. unfold path_expression. cbn [pe_literal pe_toks]. now rewrite pe_literal_fold. Qed.

Lemma etok_of_named t :
  (match snd (etok_of t) with Some _ => true | None => false end) = negb (e_is_lit (fst (etok_of t))).
Proof.
  unfold etok_of. destruct (has_prefix t [lbrace]); [|reflexivity].
  destruct (index_char t colon); [|reflexivity]. cbn [fst snd]. now destruct (str_eqb _ (L "*")).
Qed.

Lemma pe_vars_nonlit template : pe_vars (path_expression template) = e_nonlit (pe_toks (path_expression template)).
Proof.
  unfold path_expression, e_nonlit. cbn [pe_vars pe_toks].
  induction (filter (fun t => negb (str_eqb t [])) (tokenize template)) as [|t l IH]; [reflexivity|].
  cbn [map filter]. rewrite etok_of_named. destruct (negb (e_is_lit (fst (etok_of t)))); cbn [List.length]; now rewrite IH.
Qed.

Lemma pe_groups_toks template : pe_groups (path_expression template) = groups_of_toks (pe_toks (path_expression template)).
Proof.
  unfold path_expression, groups_of_toks. cbn [pe_groups pe_toks].
  induction (map etok_of (filter (fun t => negb (str_eqb t [])) (tokenize template))) as [|e l IH]; [reflexivity|].
  cbn [map fold_right]. now rewrite IH.
Qed.

Lemma pe_toks_lits_nonempty template : lits_nonempty (pe_toks (path_expression template)) = true.
Proof.
  unfold path_expression, lits_nonempty. cbn [pe_toks]. rewrite map_map, forallb_map.
  apply forallb_forall. intros t Ht. apply filter_In in Ht as [_ Hne].
  unfold etok_of. destruct (has_prefix t [lbrace]).
  - destruct (index_char t colon); cbn [fst]; [destruct (str_eqb (trim_space _) _)|]; reflexivity.
  - cbn [fst]. destruct t; [discriminate Hne|reflexivity].
Qed.

Lemma etpl_ge_chars a : forall b, etpl_ge a b = true ->
  lit_chars b <= lit_chars a /\ (lits_nonempty a = true -> etpl_ge b a = false -> lit_chars b < lit_chars a).
Proof.
  induction a as [|x a IH]; intros [|y b] H; try discriminate H; [split; [reflexivity|discriminate]|].
  cbn [etpl_ge] in H. apply andb_true_iff in H as [Hh Ht]. destruct (IH b Ht) as [Hle Hlt].
  cbn [etpl_ge lit_chars fold_right lits_nonempty forallb]. fold (lit_chars a) (lit_chars b) (lits_nonempty a).
  destruct x as [sx| | |]; [destruct y as [sy| | |]|..].
  { (* the same literal on both sides *)
    apply str_eqb_eq in Hh as ->. rewrite str_eqb_refl.
    split; [lia|]. intros [_ Hne]%andb_true_iff E. specialize (Hlt Hne E). lia. }
  (* a literal of a where b has none: it is not empty, so a has more *)
  1-3: split; [lia|]; intros [Hx _]%andb_true_iff _; destruct sx; [discriminate Hx|cbn [List.length]; lia].
  (* no literal in a: none in b either, and the heads count nothing *)
  all: destruct y; try discriminate Hh; (split; [exact Hle|exact Hlt]).
Qed.

Lemma edominates_chars a b :
  lits_nonempty a = true -> edominates a b = true -> lit_chars b < lit_chars a.
Proof. unfold edominates. intros Hne [Hab Hba%negb_true_iff]%andb_true_iff. now apply (etpl_ge_chars a b Hab). Qed.

Section PJ.
Variable O : oracles.

Lemma jsr_admits_passes w r req :
  jsr_admits O w r req = jsr_admits_path O w r (rq_path req) && passes req r.
Proof. unfold jsr_admits, passes. btauto. Qed.

(* literal-over-variable on the structural tokens is the same relation on the expression's
   tokens when they agree (the measured premise tokens_agree) *)
Lemma tpl_ge_rel ea a eb b : Forall2 tok_rel ea a -> Forall2 tok_rel eb b -> tpl_ge a b = etpl_ge ea eb.
Proof.
  intros Ha. revert eb b. induction Ha as [|ex x ea a Hx _ IH]; intros eb b [|ey y eb' b' Hy Hb]; try reflexivity.
  cbn [tpl_ge etpl_ge]. rewrite (IH _ _ Hb). unfold tok_rel in Hx, Hy. unfold is_lit.
  (* only a literal of b looks at a's token *)
  destruct (v_tk y); cbn in Hy; try discriminate Hy; injection Hy as <-; [|reflexivity..].
  destruct (v_tk x); cbn in Hx; try discriminate Hx; injection Hx as <-; reflexivity.
Qed.

Lemma dominates_rel ea a eb b :
  Forall2 tok_rel ea a -> Forall2 tok_rel eb b -> dominates a b = edominates ea eb.
Proof. intros Ha Hb. unfold dominates, edominates. now rewrite (tpl_ge_rel _ _ _ _ Ha Hb), (tpl_ge_rel _ _ _ _ Hb Ha). Qed.

(* one capture per token that is not a literal *)
Lemma jsr_match_caps toks : forall p caps fin,
  jsr_match O toks p = Some (caps, fin) -> List.length caps = e_nonlit toks.
Proof.
  induction toks as [|e toks IH]; intros p caps fin.
  - rewrite jsr_match_nil. destruct (rooted p); [|discriminate]. now intros [= <- _].
  - rewrite jsr_match_cons. destruct p as [|c p1]; [discriminate|]. destruct (negb _); [discriminate|].
    unfold e_nonlit. destruct (is_eall e).
    + destruct toks; [|discriminate]. intros [= <- _]. now destruct e.
    + destruct (span_seg p1) as [seg rest]. destruct (seg_ok O e seg); [|discriminate].
      destruct (jsr_match O toks rest) as [[caps' fin']|] eqn:Em; [|discriminate]. intros [= <- _].
      rewrite app_length, (IH _ _ _ Em). now destruct e.
Qed.

(* RouterJSR311's candidate for a route, when there is one: its keys are read off the expression's tokens *)
Definition jcand (w : service) (r : route) : route_cand :=
  let toks := pe_toks (path_expression (r_rel r)) in
  {| rc_route := r; rc_matches := S (e_nonlit toks) + groups_of_toks toks; rc_literal := lit_chars toks;
     rc_nondef := e_nonlit toks; rc_path := route_path w r |}.

Lemma jcand_of_eq w fin r :
  jcand_of O w fin r =
  match jsr_match O (pe_toks (path_expression (r_rel r))) fin with
  | Some (_, f2) => if final_ok f2 then [jcand w r] else []
  | None => []
  end.
Proof.
  unfold jcand_of, jcand. destruct (jsr_match O _ fin) as [[caps f2]|] eqn:E; [|reflexivity].
  now rewrite (jsr_match_caps _ _ _ _ E), pe_literal_sum, pe_vars_nonlit, pe_groups_toks.
Qed.

Lemma jsr_cand_canonical w fin c : In c (jsr_select_routes O w fin) -> c = jcand w (rc_route c).
Proof.
  intros (r & _ & Hc)%jsr_select_routes_In. rewrite jcand_of_eq in Hc.
  destruct (jsr_match O _ fin) as [[caps f2]|]; [|contradiction]. destruct (final_ok f2); [|contradiction].
  now destruct Hc as [<-|[]].
Qed.

Lemma jsr_candidate path w caps fin r :
  jsr_match O (pe_toks (path_expression (s_root w))) path = Some (caps, fin) -> jsr_all_agree w = true ->
  In r (s_routes w) -> jsr_admits_path O w r path = true -> In (jcand w r) (jsr_select_routes O w fin).
Proof.
  intros Hm Hag Hin Hpath. apply andb_true_iff in Hag as [Hw Hrs]. rewrite forallb_forall in Hrs.
  rewrite <- (jsr_route_iff O w r path caps fin Hw (Hrs _ Hin) Hm) in Hpath.
  apply jsr_select_routes_In. exists r. split; [exact Hin|]. rewrite jcand_of_eq.
  destruct (jsr_match O _ fin) as [[c2 f2]|]; [|discriminate Hpath]. rewrite Hpath. now left.
Qed.

Lemma jsr_selected_greatest t req w r :
  t_router t = Jsr311 -> select_route O t req = inl (w, r) -> jsr_all_agree w = true ->
  In r (s_routes w) /\
  forall r1, In r1 (s_routes w) -> jsr_admits O w r1 req = true -> rc_lt (jcand w r) (jcand w r1) = false.
Proof.
  intros Ht H Hag. destruct (jsr_select_route_inl O t req w r Ht H) as (caps & fin & _ & _ & _ & Hin & Hm & _ & _ & Hsel).
  split; [exact Hin|]. intros r1 Hin1 Had. rewrite jsr_admits_passes in Had. apply andb_true_iff in Had as [Hpath Hp1].
  apply (detect_sorted_greatest rc_lt rc_route _ _ _ rc_lt_asym rc_lt_trans) in Hsel as (c & <- & Hc & _ & Hmax).
  rewrite <- (jsr_cand_canonical w fin c Hc). apply Hmax; [exact (jsr_candidate _ _ _ _ _ Hm Hag Hin1 Hpath)|exact Hp1].
Qed.

(* C03, route level, RouterJSR311, in the terms of the specification: Less looks at the literal characters
   first, so the answer has no fewer of them than any eligible route *)
Theorem jsr_select_route_not_dominated t req w r2 :
  t_router t = Jsr311 ->
  select_route O t req = inl (w, r2) ->
  jsr_all_agree w = true ->
  forall r1, In r1 (s_routes w) ->
    jsr_admits O w r1 req = true ->
    dominates (jsr_tpl (r_rel r1)) (jsr_tpl (r_rel r2)) = false.
Proof.
  intros Ht H Hag r1 Hin1 Had. destruct (jsr_selected_greatest t req w r2 Ht H Hag) as [Hin2 Hmax]. specialize (Hmax r1 Hin1 Had).
  destruct (dominates _ _) eqn:Hdom; [|reflexivity]. rewrite rc_lt_literal in Hmax; [discriminate Hmax|].
  apply andb_true_iff in Hag as [_ Hrs]. rewrite forallb_forall in Hrs.
  rewrite (dominates_rel _ _ _ _ (tokens_agree_rel _ (Hrs _ Hin1)) (tokens_agree_rel _ (Hrs _ Hin2))) in Hdom.
  apply edominates_chars; [apply pe_toks_lits_nonempty|exact Hdom].
Qed.

End PJ.

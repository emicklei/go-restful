(* StrFacts.v — laws of the string functions of model/Str.v, in the order of that file; at the end the
   facts about lists that several files need and the standard library does not have, the last of them
   [argmax_spec]: a fold that keeps an element until one of strictly greater key comes ends with one of greatest key *)
From Model Require Import Str.
From Coq Require Import Lia.

Lemma str_eqb_refl s : str_eqb s s = true.
Proof. induction s as [|x s IH]; cbn; [reflexivity|]. now rewrite Ascii.eqb_refl, IH. Qed.

Lemma str_eqb_eq a b : str_eqb a b = true <-> a = b.
Proof.
  split.
  - revert b; induction a as [|x a IH]; intros [|y b] H; cbn in H; try discriminate; [reflexivity|].
    apply andb_true_iff in H as [H1 H2]. apply Ascii.eqb_eq in H1. subst. f_equal. now apply IH.
  - intros ->. apply str_eqb_refl.
Qed.

Lemma str_eqb_spec a b : reflect (a = b) (str_eqb a b).
Proof. apply iff_reflect. symmetry. apply str_eqb_eq. Qed.

Lemma str_eqb_neq a b : str_eqb a b = false <-> a <> b.
Proof. destruct (str_eqb_spec a b); split; congruence. Qed.

Lemma str_eqb_sym a b : str_eqb a b = str_eqb b a.
Proof. destruct (str_eqb_spec a b), (str_eqb_spec b a); congruence. Qed.

Lemma str_eqb_nil_r s : str_eqb s [] = true <-> s = [].
Proof. apply str_eqb_eq. Qed.

Lemma has_prefix_app s p : has_prefix (p ++ s) p = true.
Proof. induction p as [|c p IH]; cbn; [reflexivity|]. now rewrite Ascii.eqb_refl, IH. Qed.

Lemma has_prefix_spec s p : has_prefix s p = true <-> exists t, s = p ++ t.
Proof.
  split.
  - revert s; induction p as [|c p IH]; intros s H; cbn in *; [now exists s|].
    destruct s as [|d s]; [discriminate|]. apply andb_true_iff in H as [H1 H2].
    apply Ascii.eqb_eq in H1. subst. destruct (IH _ H2) as [t ->]. now exists t.
  - intros [t ->]. apply has_prefix_app.
Qed.

Lemma has_suffix_spec s p : has_suffix s p = true <-> exists t, s = t ++ p.
Proof.
  unfold has_suffix. rewrite has_prefix_spec. split.
  - intros [t H]. exists (rev t). apply (f_equal (@rev _)) in H.
    rewrite rev_involutive, rev_app_distr, rev_involutive in H. exact H.
  - intros [t ->]. exists (rev t). now rewrite rev_app_distr.
Qed.

Lemma has_suffix_app s p : has_suffix (s ++ p) p = true.
Proof. apply has_suffix_spec. now exists s. Qed.

(* the two ways of saying that a byte does not occur: [~ In] where a statement is read, [existsb] where
   index_char and the boolean specifications compute *)
Lemma notin_existsb c (s : str) : ~ In c s -> existsb (Ascii.eqb c) s = false.
Proof.
  destruct (existsb (Ascii.eqb c) s) eqn:E; [|reflexivity].
  apply existsb_exists in E as (x & Hx & ->%Ascii.eqb_eq). contradiction.
Qed.

Lemma index_char_from_S i s c : index_char_from (S i) s c = option_map S (index_char_from i s c).
Proof. revert i; induction s as [|x s IH]; intros i; cbn; [reflexivity|]. destruct (Ascii.eqb x c); [reflexivity|apply IH]. Qed.

Lemma index_char_cons x s c :
  index_char (x :: s) c = if Ascii.eqb x c then Some 0 else option_map S (index_char s c).
Proof. unfold index_char. cbn. destruct (Ascii.eqb x c); [reflexivity|]. apply index_char_from_S. Qed.

Lemma index_char_nil c : index_char [] c = None.
Proof. reflexivity. Qed.

Lemma index_char_Some s c e :
  index_char s c = Some e ->
  e < List.length s /\ nth e s c = c /\ existsb (Ascii.eqb c) (firstn e s) = false /\ skipn e s = c :: skipn (S e) s.
Proof.
  revert e; induction s as [|x s IH]; intros e; [discriminate|]. rewrite index_char_cons.
  destruct (Ascii.eqb x c) eqn:E.
  - intros [= <-]. apply Ascii.eqb_eq in E. subst. cbn. repeat split; lia.
  - destruct (index_char s c) as [e'|]; [|discriminate]. intros [= <-].
    destruct (IH e' eq_refl) as (H1 & H2 & H3 & H4). cbn [List.length nth firstn existsb skipn].
    rewrite Ascii.eqb_sym, E. cbn. repeat split; try lia; assumption.
Qed.

Lemma index_char_None s c : index_char s c = None <-> existsb (Ascii.eqb c) s = false.
Proof.
  induction s as [|x s IH]; [cbn; tauto|]. rewrite index_char_cons. cbn [existsb].
  rewrite (Ascii.eqb_sym c x). destruct (Ascii.eqb x c); cbn; [split; discriminate|].
  destruct (index_char s c); cbn; [split; [discriminate|]; intros H; apply IH in H; discriminate|]. tauto.
Qed.

Lemma index_char_notin_app a b c :
  existsb (Ascii.eqb c) a = false -> index_char (a ++ b) c = option_map (fun k => List.length a + k) (index_char b c).
Proof.
  induction a as [|x a IH]; cbn [existsb app List.length]; intros H.
  - destruct (index_char b c); reflexivity.
  - apply orb_false_iff in H as [H1 H2]. rewrite index_char_cons, Ascii.eqb_sym, H1, IH by assumption.
    destruct (index_char b c); reflexivity.
Qed.

Lemma index_char_app_notin a b c :
  existsb (Ascii.eqb c) a = false -> index_char (a ++ c :: b) c = Some (List.length a).
Proof.
  intros H. rewrite (index_char_notin_app a (c :: b) c H), index_char_cons, Ascii.eqb_refl. cbn [option_map]. now rewrite Nat.add_0_r.
Qed.

Lemma split_not_nil c s : split c s <> [].
Proof. destruct s as [|x s]; cbn; [discriminate|]. destruct (Ascii.eqb x c); [discriminate|]. destruct (split c s); discriminate. Qed.

Lemma split_app c a b : ~ In c a -> split c (a ++ b) = (a ++ hd [] (split c b)) :: tl (split c b).
Proof.
  induction a as [|x a IH]; cbn; intros Hn.
  - destruct (split c b) eqn:E; [now contradiction (split_not_nil c b)|reflexivity].
  - destruct (Ascii.eqb_spec x c) as [->|_]; [contradiction Hn; now left|]. now rewrite IH by tauto.
Qed.

Lemma split_app_sep c a b : ~ In c a -> split c (a ++ c :: b) = a :: split c b.
Proof. intros H. rewrite (split_app c a _ H). cbn. now rewrite Ascii.eqb_refl, app_nil_r. Qed.

Lemma split_no_sep c a : ~ In c a -> split c a = [a].
Proof. intros H. pose proof (split_app c a [] H) as E. cbn [split hd tl] in E. now rewrite !app_nil_r in E. Qed.

Lemma hd_split c (e : str) :
  hd [] (split c e) = match index_char e c with Some q => firstn q e | None => e end.
Proof.
  induction e as [|x e IH]; [reflexivity|]. cbn [split]. rewrite index_char_cons.
  destruct (Ascii.eqb x c); [reflexivity|].
  destruct (split c e) as [|h t] eqn:Es; [now contradiction (split_not_nil c e)|].
  cbn in IH. cbn. destruct (index_char e c); cbn; now rewrite IH.
Qed.

Lemma split_seps c pre ps :
  ~ In c pre -> Forall (fun p => ~ In c p) ps -> split c (pre ++ concat (map (cons c) ps)) = pre :: ps.
Proof.
  intros Hpre Hps. revert pre Hpre. induction Hps as [|p ps Hp _ IH]; intros pre Hpre; cbn [map concat app].
  - rewrite app_nil_r. now apply split_no_sep.
  - rewrite split_app_sep by exact Hpre. now rewrite IH.
Qed.

Lemma join_split c s : join [c] (split c s) = s.
Proof.
  induction s as [|x s IH]; [reflexivity|]. cbn [split]. destruct (Ascii.eqb x c) eqn:E.
  - apply Ascii.eqb_eq in E. subst x. destruct (split c s) as [|h t] eqn:Es; [now contradiction (split_not_nil c s)|].
    cbn [join app]. cbn in IH. now rewrite IH.
  - destruct (split c s) as [|h t] eqn:Es; [now contradiction (split_not_nil c s)|].
    destruct t; cbn in *; now rewrite <- IH.
Qed.

Lemma split_single_empty c p : split c p = [[]] -> p = [].
Proof. intros H. now rewrite <- (join_split c p), H. Qed.

Lemma trim_left_app_not_all c s t :
  existsb (fun x => negb (Ascii.eqb x c)) s = true -> trim_left c (s ++ t) = trim_left c s ++ t.
Proof.
  induction s as [|x s IH]; cbn; [discriminate|]. destruct (Ascii.eqb x c); cbn; [apply IH|reflexivity].
Qed.

Lemma trim_left_all c s :
  existsb (fun x => negb (Ascii.eqb x c)) s = false -> trim_left c s = [].
Proof.
  induction s as [|x s IH]; cbn; [reflexivity|]. destruct (Ascii.eqb x c); cbn; [apply IH|discriminate].
Qed.

Lemma trim_app_sep c s : trim c (s ++ [c]) = trim c s.
Proof.
  unfold trim, trim_right.
  destruct (existsb (fun x => negb (Ascii.eqb x c)) s) eqn:E.
  - rewrite trim_left_app_not_all by exact E. rewrite rev_app_distr. cbn [rev app trim_left].
    rewrite Ascii.eqb_refl. reflexivity.
  - rewrite (trim_left_all c s E). assert (E' : existsb (fun x => negb (Ascii.eqb x c)) (s ++ [c]) = false).
    { rewrite existsb_app, E. cbn. now rewrite Ascii.eqb_refl. }
    rewrite (trim_left_all c _ E'). reflexivity.
Qed.

Lemma firstn_app_l {A} (a b : list A) : firstn (List.length a) (a ++ b) = a.
Proof. induction a as [|x a IH]; cbn; [now destruct b|now rewrite IH]. Qed.

Lemma skipn_app_l {A} (a b : list A) : skipn (List.length a) (a ++ b) = b.
Proof. induction a as [|x a IH]; [reflexivity|exact IH]. Qed.

Lemma skipn_app_cons {A} (a : list A) x b : skipn (S (List.length a)) (a ++ x :: b) = b.
Proof. induction a as [|y a IH]; [reflexivity|exact IH]. Qed.

Lemma slice_app_mid a b c : slice (a ++ b ++ c) (List.length a) (List.length a + List.length b) = b.
Proof.
  unfold slice. now rewrite skipn_app_l, (Nat.add_comm (List.length a)), Nat.add_sub, firstn_app_l.
Qed.

Lemma slice_but_last (s : str) i a x : skipn i s = a ++ [x] -> slice s i (List.length s - 1) = a.
Proof.
  intros H. unfold slice. rewrite H. pose proof (skipn_length i s) as Hl. rewrite H, app_length in Hl. cbn in Hl.
  replace (List.length s - 1 - i) with (List.length a) by lia. apply firstn_app_l.
Qed.

Lemma slice_ok_true (s : str) i j : i <= j -> j <= List.length s -> slice_ok s i j = true.
Proof. intros H1 H2. unfold slice_ok. apply andb_true_iff. split; now apply Nat.leb_le. Qed.

Lemma assoc_In {A} k (l : list (str * A)) v : assoc k l = Some v -> In (k, v) l.
Proof.
  induction l as [|[k' v'] l IH]; cbn; [discriminate|].
  destruct (str_eqb_spec k k') as [->|N]; [intros [= ->]; now left | intros H; right; auto].
Qed.

Lemma mem_In x l : mem x l = true <-> In x l.
Proof.
  induction l as [|y l IH]; cbn; [split; [discriminate|tauto]|].
  rewrite orb_true_iff, IH, str_eqb_eq. split; intros [H|H]; auto.
Qed.

Lemma mem_false x l : mem x l = false <-> ~ In x l.
Proof. rewrite <- mem_In. destruct (mem x l); split; congruence. Qed.

Lemma existsb_str_eqb {A} (f : A -> str) y l :
  existsb (fun x => str_eqb (f x) y) l = true <-> exists x, In x l /\ f x = y.
Proof. rewrite existsb_exists. split; intros (x & H & E); exists x; (split; [exact H|]); now apply str_eqb_eq. Qed.

Lemma orb_iff a b (A B : Prop) : (a = true <-> A) -> (b = true <-> B) -> (a || b = true <-> A \/ B).
Proof. intros [HA HA'] [HB HB']. split; [intros [H|H]%orb_true_iff|intros [H|H]; apply orb_true_iff]; auto. Qed.

(* the code asks of each entry "does it match, or is it the wildcard [k]"; the properties ask the two questions of the list *)
Lemma existsb_or_mem (f p : str -> bool) k l :
  (forall x, f x = p x || str_eqb x k) -> existsb f l = existsb p l || mem k l.
Proof.
  intros H. induction l as [|x l IH]; [reflexivity|]. cbn [existsb mem]. rewrite IH, H, (str_eqb_sym k x).
  now destruct (p x), (str_eqb x k), (existsb p l).
Qed.

Lemma forallb_map {A B} (f : A -> B) p l : forallb p (map f l) = forallb (fun x => p (f x)) l.
Proof. induction l as [|x l IH]; cbn; [reflexivity|now rewrite IH]. Qed.

Lemma forallb_ext {A} (p q : A -> bool) l : (forall a, p a = q a) -> forallb p l = forallb q l.
Proof. intros H. induction l as [|x l IH]; cbn; [reflexivity|now rewrite H, IH]. Qed.

Lemma existsb_ext {A} (p q : A -> bool) l : (forall a, p a = q a) -> existsb p l = existsb q l.
Proof. intros H. induction l as [|x l IH]; cbn; [reflexivity|now rewrite H, IH]. Qed.

Lemma existsb_app_false {A} (p : A -> bool) a b :
  existsb p (a ++ b) = false <-> existsb p a = false /\ existsb p b = false.
Proof. rewrite existsb_app, orb_false_iff. tauto. Qed.

Lemma existsb_false_In {A} (bad : A -> bool) l : existsb bad l = false -> forall a, In a l -> bad a = false.
Proof.
  intros H a Hin. destruct (bad a) eqn:E; [|reflexivity].
  rewrite (proj2 (existsb_exists bad l)) in H by eauto. discriminate H.
Qed.

Lemma existsb_false_forallb {A} (p : A -> bool) l :
  existsb p l = false -> forallb (fun x => negb (p x)) l = true.
Proof.
  intros H. apply forallb_forall. intros x Hin. now rewrite (existsb_false_In p l).
Qed.

Lemma filter_filter {A} (p q : A -> bool) l :
  filter q (filter p l) = filter (fun x => p x && q x) l.
Proof.
  induction l as [|x l IH]; [reflexivity|]. cbn [filter].
  destruct (p x); cbn [filter andb]; [destruct (q x); now rewrite IH|exact IH].
Qed.

Lemma flat_map_filter {A B} (f : B -> A) (g : A -> list B) (p : A -> bool) l :
  (forall a, In a l -> map f (g a) = if p a then [a] else []) -> map f (flat_map g l) = filter p l.
Proof.
  induction l as [|a l IH]; intros H; [reflexivity|]. cbn [flat_map filter].
  rewrite map_app, (H a), IH; [now destruct (p a)|intros; apply H; now right|now left].
Qed.

Lemma find_filter_head {A} (P : A -> bool) l : find P l = match filter P l with x :: _ => Some x | [] => None end.
Proof. induction l as [|y l IH]; [reflexivity|]. cbn. destruct (P y); [reflexivity|exact IH]. Qed.

Lemma find_map {A B} (f : A -> B) (P : B -> bool) l : find P (map f l) = option_map f (find (fun x => P (f x)) l).
Proof. induction l as [|y l IH]; [reflexivity|]. cbn. destruct (P (f y)); [reflexivity|exact IH]. Qed.

Lemma NoDup_map_inj {A B} (f : A -> B) l a b : NoDup (map f l) -> In a l -> In b l -> f a = f b -> a = b.
Proof.
  induction l as [|x l IH]; [contradiction|]. cbn. intros Hnd Ha Hb Hf. inversion Hnd as [|? ? Hx Hnd'].
  destruct Ha as [<-|Ha], Hb as [<-|Hb]; [reflexivity| | |now apply IH].
  - exfalso. apply Hx. rewrite Hf. now apply in_map.
  - exfalso. apply Hx. rewrite <- Hf. now apply in_map.
Qed.

Lemma Forall2_map_eq {A B} (f : A -> B) l l' : Forall2 (fun a b => f a = f b) l l' <-> map f l = map f l'.
Proof.
  split; [induction 1 as [|a b l l' E _ IH]; cbn; congruence|].
  revert l'. induction l as [|a l IH]; intros [|b l'] [= ]; constructor; auto.
Qed.

(* a fold that replaces what it holds only by a passing element of strictly greater key: the loop behind
   detectWebService (score), ServeMux's longest-prefix match (length) and the Accept ranking (q).  It ends with a
   passing element of greatest key; that it is the first such is proved where it is needed (NegotiateProofs.best_earliest) *)
Section Argmax.
Context {X : Type} (P : X -> bool) (key : X -> Z).

Definition argmax_step (b : option X) (e : X) : option X :=
  if P e && match b with None => true | Some x => Z.ltb (key x) (key e) end then Some e else b.

(* [step] is the model's own loop body *)
Lemma argmax_spec (step : option X -> X -> option X) :
  (forall b e, step b e = argmax_step b e) -> forall l,
  match fold_left step l None with
  | Some r => In r l /\ P r = true /\ forall e, In e l -> P e = true -> (key e <= key r)%Z
  | None => forall e, In e l -> P e = false
  end.
Proof.
  intros Hstep l. induction l as [|e l IH] using rev_ind; [intros e []|].
  rewrite fold_left_app. cbn [fold_left]. rewrite Hstep. unfold argmax_step.
  destruct (fold_left step l None) as [x|], (P e) eqn:Pe; cbn [andb].
  - destruct IH as (Hin & Px & Hmax). destruct (Z.ltb_spec (key x) (key e)) as [Hl|Hl].
    + split; [apply in_elt|]. split; [exact Pe|].
      intros y [Hy|[<-|[]]]%in_app_or Py; [specialize (Hmax y Hy Py)|]; lia.
    + split; [apply in_or_app; now left|]. split; [exact Px|].
      intros y [Hy|[<-|[]]]%in_app_or Py; [now apply Hmax|exact Hl].
  - destruct IH as (Hin & Px & Hmax). split; [apply in_or_app; now left|]. split; [exact Px|].
    intros y [Hy|[<-|[]]]%in_app_or Py; [now apply Hmax|congruence].
  - split; [apply in_elt|]. split; [exact Pe|].
    intros y [Hy|[<-|[]]]%in_app_or Py; [now rewrite (IH y Hy) in Py|lia].
  - intros y [Hy|[<-|[]]]%in_app_or; [now apply IH|exact Pe].
Qed.
End Argmax.

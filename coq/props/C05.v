(* C05 — the written entity's media type is produced by the route and best for Accept. *)
From Model Require Import Str Table DetectRoute Negotiate Builder.
From Proofs Require Import NegotiateProofs BuilderProofs.

(* Ranking.  For every predicate "this range selects a writer" and every list of parsed
   ranges: the first selecting range in sortedMimes' order is [best]: a selecting range of
   maximal quality ([best_spec]) and, among equals, the earliest in the header ([best_earliest]). *)
Definition C05_ranking_statement : Prop :=
  forall (P : str * Z -> bool) (ranges : list (str * Z)),
    find P (sort_ranges ranges) = best P ranges /\
    match best P ranges with
    | None => forall e, In e ranges -> P e = false
    | Some r => In r ranges /\ P r = true /\ forall e, In e ranges -> P e = true -> (snd e <= snd r)%Z
    end.
Theorem C05_ranking : C05_ranking_statement.
Proof. split; [apply find_sorted_is_best|apply best_spec]. Qed.
Print Assumptions C05_ranking.

Definition C05_ties_statement : Prop :=
  forall (P : str * Z -> bool) pre r post,
    P r = true -> (forall e, In e pre -> P e = true -> (snd e < snd r)%Z) ->
    (forall e, In e post -> P e = true -> (snd e <= snd r)%Z) ->
    best P (pre ++ r :: post) = Some r.
Theorem C05_ties : C05_ties_statement.
Proof. exact best_earliest. Qed.
Print Assumptions C05_ties.

(* The writer.  For every ParseFloat oracle, every registered-writer set, every non-empty
   Produces list over registered types, every default content type and every Accept header
   (absent = the wildcard range): when some range selects a writer, EntityWriter answers exactly ONE type
   (whatever the map iteration order), it is in Produces and registered, and it is what the
   best range stands for: its own media type, or, for the wildcard range, the first Produces entry. *)
Definition C05_writer_statement : Prop :=
  forall (qrank : str -> option Z) (reg produces : list str) (dflt accept0 : str) (r : str * Z),
    premise reg produces ->
    best (selects reg produces) (parsed_ranges qrank (match accept0 with [] => L "*/*" | _ => accept0 end)) = Some r ->
    exists k, entity_writer qrank reg produces dflt accept0 = [k] /\ In k produces /\ mem k reg = true /\
              (k = fst r \/ (fst r = L "*/*" /\ exists rest, produces = k :: rest)).
Theorem C05_writer : C05_writer_statement.
Proof. exact entity_writer_sound. Qed.
Print Assumptions C05_writer.

(* A request the router admitted on Accept grounds (route.go matchesAccept, the model of
   C01/C02) is never answered 406 by the entity writer — for headers whose q values parse. *)
Definition C05_never_406_statement : Prop :=
  forall (qrank : str -> option Z) (reg produces : list str) (dflt accept0 : str) (rt : route),
    premise reg produces -> r_produces rt = produces ->
    let accept := match accept0 with [] => L "*/*" | _ => accept0 end in
    all_q_parse qrank accept -> matches_accept rt accept = true ->
    exists k, entity_writer qrank reg produces dflt accept0 = [k] /\ In k produces /\ mem k reg = true.
Theorem C05_never_406 : C05_never_406_statement.
Proof. exact admitted_never_406. Qed.
Print Assumptions C05_never_406.

(* Optional whitespace around "," ";" "=" and the position of q among the parameters do not
   change what a range means. *)
Definition C05_ows_statement : Prop :=
  forall qrank (s1 s2 s3 s4 s5 s6 m v : str) (others : list str) z,
    spaces s1 -> spaces s2 -> spaces s3 -> spaces s4 -> spaces s5 -> spaces s6 ->
    no_char semi m -> no_char semi v -> no_char equals s3 ->
    (match m with c :: _ => c <> space | [] => True end) -> (match rev m with c :: _ => c <> space | [] => True end) ->
    (match v with c :: _ => c <> space | [] => True end) -> (match rev v with c :: _ => c <> space | [] => True end) ->
    no_char semi s1 -> no_char semi s2 -> no_char semi s3 -> no_char semi s4 -> no_char semi s5 -> no_char semi s6 ->
    Forall (fun p => no_char semi p /\ match split_eq p with Some (k, _) => trim space k <> L "q" | None => True end) others ->
    qrank v = Some z ->
    parse_range qrank (s1 ++ m ++ s2 ++ concat (map (fun p => semi :: p) others) ++
                       semi :: (s3 ++ L "q" ++ s4 ++ equals :: s5 ++ v ++ s6)) = Some (m, z).
Theorem C05_ows : C05_ows_statement.
Proof.
  intros qrank s1 s2 s3 s4 s5 s6 m v others z S1 S2 S3 S4 S5 S6 Nm Nv Ne3 M1 M2 V1 V2 N1 N2 N3 N4 N5 N6 Hoth Hq.
  rewrite (app_assoc m), (app_assoc s1), parse_range_q; trivial.
  - now rewrite !trim_ows, Hq.
  - now apply no_char_app3.
  - exact (Forall_impl _ (fun p => @proj1 _ _) Hoth).
  - now apply no_char_app3.
  - exact (Forall_impl _ (fun p => @proj2 _ _) Hoth).
Qed.
Print Assumptions C05_ows.

(* "the same request always gets the same representation": for EVERY registry, Produces list, default type and Accept
   header (inside the premise or not, q values parsable or not) the entity writer has at most one possible answer.
   (Before fix F10 the reverse lookup ranged over a map and the model returned the set of possible answers.) *)
Definition C05_single_answer_statement : Prop :=
  forall qrank reg produces dflt accept0, length (entity_writer qrank reg produces dflt accept0) <= 1.
Theorem C05_single_answer : C05_single_answer_statement.
Proof. exact entity_writer_single. Qed.
Print Assumptions C05_single_answer.

Example C05_example :
  let qrank (s : str) := if str_eqb s (L "1") then Some 2%Z else if str_eqb s (L "0.9") then Some 1%Z else None in
  let reg := [L "application/json"; L "application/xml"] in
  premise reg [L "application/xml"; L "application/json"] /\
  entity_writer qrank reg [L "application/xml"; L "application/json"] [] (L "text/html, application/json ; v=1 ;q = 0.9 ,  application/xml") = [L "application/xml"] /\
  entity_writer qrank reg [L "application/xml"; L "application/json"] [] (L "application/json, application/xml") = [L "application/json"] /\
  entity_writer qrank reg [L "application/xml"; L "application/json"] (L "application/json") [] = [L "application/xml"].
Proof.
  intros qrank reg. split; [|vm_compute; repeat split; reflexivity].
  split; [discriminate|]. split; [|reflexivity]. intros p [<-|[<-|[]]]; reflexivity.
Qed.

(* "the route's declared Produces": what a route that declares nothing itself inherits from its WebService is fixed
   when the route is added. For every history of ws.Produces / ws.Consumes / ws.Route calls before it and EVERY history
   after it, the route sits where it was put, the routes before it are untouched, and its lists are its own or, where
   it declared none, the last ones the service had declared by then. *)
Definition C05_registration_time_statement : Prop :=
  forall (before after : list bop) (r : route),
    let s := ws_build before in
    let final := ws_build (before ++ BRoute r :: after) in
    nth_error (w_routes final) (length (w_routes s)) = Some (copy_defaults s r) /\
    firstn (length (w_routes s)) (w_routes final) = w_routes s /\
    r_produces (copy_defaults s r) = inherit (last_produces before []) (r_produces r) /\
    r_consumes (copy_defaults s r) = inherit (last_consumes before []) (r_consumes r).
Theorem C05_registration_time : C05_registration_time_statement.
Proof. exact route_keeps_what_it_inherited. Qed.
Print Assumptions C05_registration_time.

Example C05_registration_time_example :
  let mk own := {| r_id := 1; r_method := L "GET"; r_rel := L "/v"; r_consumes := []; r_produces := own;
                   r_conds := []; r_noct := []; r_enc := None |} in
  map r_produces (w_routes (ws_build [BProduces [L "application/json"; L "application/xml"]; BRoute (mk []);
                                      BProduces [L "application/xml"]; BRoute (mk []); BRoute (mk [L "text/plain"])]))
  = [[L "application/json"; L "application/xml"]; [L "application/xml"]; [L "text/plain"]].
Proof. vm_compute. reflexivity. Qed.

(* C15 — Response status and length bookkeeping match what was actually sent. *)
From Model Require Import Str Response.
From Proofs Require Import ResponseProofs.

(* For every behaviour of the underlying writer (any script of partial / failing Write
   calls), with or without a compressing writer in between, either pretty-print setting,
   and every history of Write, WriteHeader, WriteErrorString / WriteError, WriteEntity /
   WriteHeaderAndEntity / WriteServiceError / WriteAsJson / WriteAsXml and PrettyPrint calls
   (whatever the marshaller produces, in whatever chunks, or its failure) in which the status
   is set at most once and before any Write call ([wf_ops]):
   StatusCode() is the status the underlying writer received (200 if none was set), and
   ContentLength() is the number of body bytes accepted — by the underlying writer, or by
   the compressor (i.e. counted before coding) when one sits in between. *)
Definition C15_statement : Prop :=
  forall (script : list (N * bool)) (comp pretty : bool) (ops : list rop) (r : resp) (es : list bool),
    wf_ops false pretty ops = true ->
    resp_run (resp_init script comp pretty) ops = (r, es) ->
    status_code r = uw_seen (p_u r) /\
    content_length r = Z.of_N (if comp then p_cbytes r else u_bytes (p_u r)).
Theorem C15 : C15_statement.
Proof.
  intros script comp pretty ops r es Hwf Hrun.
  destruct (run_bookkeeping false _ ops (st_init script comp pretty) (len_init script comp pretty) Hwf) as (Hs & Hl & Hc).
  rewrite Hrun in Hs, Hl, Hc. split; [exact Hs|]. rewrite (len_inv_content_length r Hl). cbn [fst] in Hc. now rewrite Hc.
Qed.
Print Assumptions C15.

(* the length half needs no premise at all: it is an invariant of every call *)
Definition C15_length_invariant_statement : Prop :=
  forall r o r' e, resp_step r o = (r', e) -> len_inv r -> len_inv r'.
Theorem C15_length_invariant : C15_length_invariant_statement.
Proof.
  intros r o r' e H. change r' with (fst (r', e)). rewrite <- H. apply inv_step; auto using len_write_header, len_write.
Qed.
Print Assumptions C15_length_invariant.

(* whenever an underlying Write call fails during a call of the Response, that call returns
   an error — at every position of every history, from every state (with a compressor in
   between no underlying failure is visible to the model: [p_u] is not written to) *)
Definition C15_errors_statement : Prop :=
  forall (ops : list rop) (r : resp),
    Forall2 (fun (e : bool) (ab : nat * nat) => fst ab < snd ab -> e = true)
            (snd (resp_run r ops)) (fails_trace r ops).
Theorem C15_errors : C15_errors_statement.
Proof.
  intros ops. induction ops as [|o rest IH]; intros r; cbn [resp_run fails_trace]; [constructor|].
  destruct (resp_step r o) as [r1 e] eqn:E1. specialize (IH r1).
  destruct (resp_run r1 rest) as [r2 es']. constructor; [|exact IH]. exact (step_error_reported _ _ _ _ E1).
Qed.
Print Assumptions C15_errors.

(* the premise is needed (the code records the LAST status, the writer keeps the FIRST) *)
Example C15_premise_needed :
  let r := fst (resp_run (resp_init [] false true) [OWriteHeader 201; OWriteHeader 404]) in
  status_code r = 404%Z /\ uw_seen (p_u r) = 201%Z.
Proof. split; reflexivity. Qed.

Example C15_example :
  let ops := [OPretty false; OEntity 201 true false (Some [L "{""id"":1}"; L "tail"]); OWrite (L "more")] in
  wf_ops false true ops = true /\
  let '(r, es) := resp_run (resp_init [(1000%N, false); (2%N, false)] false true) ops in
  es = [false; true; false] /\ status_code r = 201%Z /\ content_length r = 14%Z /\ u_bytes (p_u r) = 14%N.
Proof. vm_compute. repeat split. Qed.

(* C16 — entities survive write then read, also compressed, whatever came before.
   (partial: encoding/json, encoding/xml, compress/gzip and compress/zlib are variables of the statements;
   their round-trip contracts are premises) *)
From Model Require Import Str Entity.
From Proofs Require Import EntityProofs.

(* For every value type, every codec / compressor satisfying the round-trip contracts, every
   registry and default request content type, every pooled reader state, every Content-Type
   spelling that resolves to the codec the value was written with, and every declared encoding
   (gzip, deflate, none): reading what was written gives the value back. *)
Definition C16_round_trip_statement : Prop :=
  forall (V : Type) (decode : codec -> str -> option V) (gunzip inflate : str -> option str) (inflate_open : str -> bool)
         (marshal : codec -> V -> str) (gzip deflate : str -> str),
    (forall c v, decode c (marshal c v) = Some v) ->
    (forall b, gunzip (gzip b) = Some b) ->
    (forall b, inflate (deflate b) = Some b /\ inflate_open (deflate b) = true) ->
    forall reg dflt ct ce c v pooled pick,
      pick (accessor_at reg ct) = Some c ->
      fst (read_entity V decode gunzip inflate inflate_open reg dflt ct ce
                       (encode_body gzip deflate ce (marshal c v)) pooled pick) = ROk v.
Theorem C16_round_trip : C16_round_trip_statement.
Proof.
  intros V decode gunzip inflate inflate_open marshal gzip deflate decode_marshal gunzip_gzip inflate_deflate
         reg dflt ct ce c v pooled pick Hp.
  rewrite (read_entity_decodes V decode gunzip inflate inflate_open reg dflt ct ce _ pooled pick c (marshal c v) Hp)
    by now apply entity_bytes_encode_body.
  now rewrite decode_marshal.
Qed.
Print Assumptions C16_round_trip.

(* a broken declared encoding or syntax yields an error value — the panic outcome is
   unreachable — and the gzip reader is acquired exactly for the label "gzip" *)
Definition C16_never_panics_statement : Prop :=
  forall V decode gunzip inflate inflate_open reg dflt ct ce body pooled pick,
    fst (read_entity V decode gunzip inflate inflate_open reg dflt ct ce body pooled pick) <> RPanicked /\
    snd (read_entity V decode gunzip inflate inflate_open reg dflt ct ce body pooled pick) = str_eqb ce (L "gzip").
Theorem C16_never_panics : C16_never_panics_statement.
Proof.
  intros V decode gunzip inflate inflate_open reg dflt ct ce body pooled pick.
  split; [apply entity_result_not_panicked|reflexivity].
Qed.
Print Assumptions C16_never_panics.

(* what an earlier request left in the pooled reader never matters (Reset replaces every piece
   of its state): so over any history each body is decoded as it would be alone *)
Definition C16_history_statement : Prop :=
  forall V decode gunzip inflate inflate_open reg dflt ct ce body p1 p2 pick,
    read_entity V decode gunzip inflate inflate_open reg dflt ct ce body p1 pick =
    read_entity V decode gunzip inflate inflate_open reg dflt ct ce body p2 pick.
Theorem C16_history : C16_history_statement.
Proof.
  intros V decode gunzip inflate inflate_open reg dflt ct ce body p1 p2 pick.
  unfold read_entity, entity_bytes, gz_read_all, gz_reset. reflexivity.
Qed.
Print Assumptions C16_history.

(* a Content-Type with parameters resolves, whatever the map iteration order, to the one
   registered key it contains *)
Theorem C16_parameters :
  forall (reg : registry) k c params,
    assoc (k ++ params) reg = None ->
    (forall k' c', In (k', c') reg -> contains (k ++ params) k' = true -> k' = k) ->
    In (k, c) reg -> (forall c', In (k, c') reg -> c' = c) ->
    forall x, In x (accessor_at reg (k ++ params)) -> x = c.
Proof.
  intros reg k c params Hn Honly Hin Huniq x Hx. unfold accessor_at in Hx. rewrite Hn in Hx.
  apply in_map_iff in Hx as ([k' c'] & <- & Hf). apply filter_In in Hf as [Hf1 Hf2]. cbn in *.
  pose proof (Honly k' c' Hf1 Hf2). subst k'. now apply Huniq.
Qed.
Print Assumptions C16_parameters.

Example C16_example :
  accessor_at [(L "application/json", CJson); (L "application/xml", CXml)] (L "application/json; charset=utf-8") = [CJson].
Proof. reflexivity. Qed.

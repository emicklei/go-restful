(* C18 — CurlyRouter and RouterJSR311 agree wherever both are specified. *)
From Model Require Import Str Http Template Table Curly DetectRoute Jsr311 Router.
From Spec Require Import RouteSpec RankSpec.
From Proofs Require Import RouterProofs JsrOutcomeProofs AgreeProofs.

(* The full statement: on the common fragment every request has the same outcome under
   both routers. *)
Definition C18_statement : Prop :=
  forall (O : oracles) (wss : list service) (req : request),
    c18_fragment {| t_router := Curly; t_services := wss |} = true ->
    route_request O {| t_router := Curly; t_services := wss |} req
    = route_request O {| t_router := Jsr311; t_services := wss |} req.

(* It is FALSE of the faithful model and of the code, in two ways (known findings): *)
Definition O0 : oracles := {| o_lower := lower_ascii; o_rx := fun _ _ => false; o_rxfull := fun _ _ => false |}.
Definition mk (id : Z) (m rel : string) : route :=
  {| r_id := id; r_method := L m; r_rel := L rel; r_consumes := []; r_produces := [];
     r_conds := []; r_noct := []; r_enc := None |}.
Definition get (p : string) : request := {| rq_method := L "GET"; rq_path := L p; rq_headers := []; rq_clen := 0 |}.

(* K-C18-1: incomparable templates are ranked differently (static segment count, then
   path string, vs. literal character count): GET /cc/b runs /{a}/b under CurlyRouter
   and /cc/{d} under RouterJSR311 *)
Theorem C18_refuted_ranking : ~ C18_statement.
Proof.
  intros H.
  specialize (H O0 [ {| s_root := L "/"; s_routes := [mk 1 "GET" "/{a}/b"; mk 2 "GET" "/cc/{d}"] |} ]
                (get "/cc/b") eq_refl).
  vm_compute in H. discriminate H.
Qed.
Print Assumptions C18_refuted_ranking.

(* K-C18-2: an empty segment binds the empty string under CurlyRouter, 404 under RouterJSR311 *)
Theorem C18_refuted_empty_segment : ~ C18_statement.
Proof.
  intros H.
  specialize (H O0 [ {| s_root := L "/a"; s_routes := [mk 1 "GET" "/{v}/b"] |} ] (get "/a//b") eq_refl).
  vm_compute in H. discriminate H.
Qed.
Print Assumptions C18_refuted_empty_segment.

(* What IS proved about the shared part: both routers hand their candidates to the same
   detectRoute, whose result depends on the candidate list only (the request's path plays
   no role), so once the candidate lists agree the outcomes agree. *)
Definition C18_shared_stage_statement : Prop :=
  forall routes req p, detect_route routes (with_path req p) = detect_route routes req.
Theorem C18_shared_stage : C18_shared_stage_statement.
Proof. exact detect_route_with_path. Qed.
Print Assumptions C18_shared_stage.

(* The positive half.  Whenever both routers hand the request to the same service w (or to
   none), w's templates read the same under both routers token by token and consist of
   non-empty literals and plain variables (c18_service_ok; jsr_all_agree / jsr_names_agree:
   the expression compiled by path_expression.go is that reading), the path is cut into the
   same non-empty segments by both (c18_clean: leading slash, no empty segment, at most one
   trailing slash — the complement is K-C18-2), and the routes eligible for the request are
   strictly ordered by literal-over-variable (c18_chain — the complement is K-C18-1 plus
   same-shape twins, for which see C18_agree_final): the two routers return
   the same route of the same service with the same parameter map, or the same error with the
   same Allow set.  All premises are booleans evaluated on every generated case. *)
Definition C18_agree_statement : Prop :=
  forall (O : oracles) (wss : list service) (req : request) (w : service) (fin : str),
    detect_web_service O (tokenize (rq_path req)) wss = Some w ->
    detect_dispatcher O (rq_path req) wss = Some (w, fin) ->
    forallb (wf_route w) (s_routes w) = true ->
    jsr_all_agree w = true -> forallb (jsr_names_agree w) (s_routes w) = true ->
    c18_service_ok w = true -> c18_clean (rq_path req) = true -> c18_chain O w req = true ->
    routed_equiv (route_request O {| t_router := Curly; t_services := wss |} req)
                 (route_request O {| t_router := Jsr311; t_services := wss |} req).
Theorem C18_agree : C18_agree_statement.
Proof. exact routers_agree. Qed.
Print Assumptions C18_agree.

Definition C18_agree_unclaimed_statement : Prop :=
  forall (O : oracles) (wss : list service) (req : request),
    detect_web_service O (tokenize (rq_path req)) wss = None ->
    detect_dispatcher O (rq_path req) wss = None ->
    route_request O {| t_router := Curly; t_services := wss |} req = RError E404 /\
    route_request O {| t_router := Jsr311; t_services := wss |} req = RError E404.
Theorem C18_agree_unclaimed : C18_agree_unclaimed_statement.
Proof. intros O wss req H1 H2. unfold route_request. rewrite !select_route_eq. cbn [t_router t_services]. rewrite H1, H2. auto. Qed.
Print Assumptions C18_agree_unclaimed.

(* ... and for literal root paths both routers DO hand the request to the same service (the one
   with the longest root that is a segment prefix of the URL: greatest score under CurlyRouter,
   most literal characters under RouterJSR311), so that premise goes: for tables whose roots
   consist of non-empty literal tokens and are pairwise different (roots_literal,
   roots_distinct), a cleanly segmented path, and the service CurlyRouter finds (if any)
   satisfying the per-service premises above, the two routers agree. *)
Definition C18_agree_literal_roots_statement : Prop :=
  forall (O : oracles) (wss : list service) (req : request),
    roots_literal wss = true -> roots_distinct wss = true -> c18_clean (rq_path req) = true ->
    (forall w, detect_web_service O (tokenize (rq_path req)) wss = Some w ->
       forallb (wf_route w) (s_routes w) = true /\ jsr_all_agree w = true
       /\ forallb (jsr_names_agree w) (s_routes w) = true /\ c18_service_ok w = true /\ c18_chain O w req = true) ->
    routed_equiv (route_request O {| t_router := Curly; t_services := wss |} req)
                 (route_request O {| t_router := Jsr311; t_services := wss |} req).
Theorem C18_agree_literal_roots : C18_agree_literal_roots_statement.
Proof.
  intros O wss req Hl Hd Hc Hw. apply (agree_literal_roots O wss req Hl Hd Hc). intros w fin E E'.
  destruct (Hw w E) as (H1 & H2 & H3 & H4 & H5). exact (routers_agree O wss req w fin E E' H1 H2 H3 H4 Hc H5).
Qed.
Print Assumptions C18_agree_literal_roots.

(* The strongest form: twins allowed.  Eligible routes need only be pairwise comparable under
   literal-over-variable (c18_chain_weak: for any two, one is at least as specific as the other —
   the complement is exactly K-C18-1's class of incomparable templates); routes of the same shape
   tie on every count of either Less and are separated by the same comparison of their path
   strings in both routers, which differ when (method, path) pairs are distinct. *)
Definition C18_agree_final_statement : Prop :=
  forall (O : oracles) (wss : list service) (req : request),
    roots_literal wss = true -> roots_distinct wss = true -> c18_clean (rq_path req) = true ->
    (forall w, detect_web_service O (tokenize (rq_path req)) wss = Some w ->
       forallb (wf_route w) (s_routes w) = true /\ jsr_all_agree w = true
       /\ forallb (jsr_names_agree w) (s_routes w) = true /\ c18_service_ok w = true
       /\ distinct (map (route_key w) (s_routes w)) = true /\ c18_chain_weak O w req = true) ->
    routed_equiv (route_request O {| t_router := Curly; t_services := wss |} req)
                 (route_request O {| t_router := Jsr311; t_services := wss |} req).
Theorem C18_agree_final : C18_agree_final_statement.
Proof.
  intros O wss req Hl Hd Hc Hw. apply (agree_literal_roots O wss req Hl Hd Hc). intros w fin E E'.
  destruct (Hw w E) as (H1 & H2 & H3 & H4 & H5 & H6). exact (routers_agree_twins O wss req w fin E E' H1 H2 H3 H4 Hc H5 H6).
Qed.
Print Assumptions C18_agree_final.

Definition C18_same_service_statement : Prop :=
  forall (O : oracles) (wss : list service) (p : str),
    roots_literal wss = true -> roots_distinct wss = true -> c18_clean p = true ->
    match detect_web_service O (tokenize p) wss, detect_dispatcher O p wss with
    | Some w, Some (w', _) => w = w'
    | None, None => True
    | _, _ => False
    end.
Theorem C18_same_service : C18_same_service_statement.
Proof. exact same_service. Qed.
Print Assumptions C18_same_service.

(* the premises hold on a concrete table with overlapping routes, for a request that is
   served (/u/me beats /u/{id}), one that binds a parameter, and one answered 405 *)
Example C18_agree_example :
  let w := {| s_root := L "/u"; s_routes := [mk 1 "GET" "/{id}"; mk 2 "GET" "/me"; mk 3 "POST" "/{id}/files"] |} in
  let w2 := {| s_root := L "/u/x/y"; s_routes := [mk 4 "GET" "/"] |} in
  forall p, In p ["/u/me"; "/u/42/"; "/u/42/files"]%string ->
  let req := get p in
  detect_web_service O0 (tokenize (rq_path req)) [w; w2] = Some w
  /\ (exists fin, detect_dispatcher O0 (rq_path req) [w; w2] = Some (w, fin))
  /\ forallb (wf_route w) (s_routes w) = true
  /\ jsr_all_agree w = true /\ forallb (jsr_names_agree w) (s_routes w) = true
  /\ c18_service_ok w = true /\ c18_clean (rq_path req) = true /\ c18_chain O0 w req = true
  /\ roots_literal [w; w2] = true /\ roots_distinct [w; w2] = true.
Proof.
  intros w w2 p Hp. destruct Hp as [<-|[<-|[<-|[]]]]; vm_compute; repeat split; eexists; reflexivity.
Qed.

(* twins: /u/{a}/x and /u/{b}/x of one method differ only in the variable name; both routers run
   the one with the greater path string *)
Example C18_twins_example :
  let w := {| s_root := L "/u"; s_routes := [mk 1 "GET" "/{a}/x"; mk 2 "GET" "/{b}/x"] |} in
  let req := get "/u/7/x" in
  roots_literal [w] = true /\ roots_distinct [w] = true /\ c18_clean (rq_path req) = true
  /\ detect_web_service O0 (tokenize (rq_path req)) [w] = Some w
  /\ forallb (wf_route w) (s_routes w) = true /\ jsr_all_agree w = true
  /\ forallb (jsr_names_agree w) (s_routes w) = true /\ c18_service_ok w = true
  /\ distinct (map (route_key w) (s_routes w)) = true /\ c18_chain_weak O0 w req = true
  /\ c18_chain O0 w req = false
  /\ (exists ps, route_request O0 {| t_router := Curly; t_services := [w] |} req = RInvoke w (mk 2 "GET" "/{b}/x") ps).
Proof. vm_compute. repeat split; eexists; reflexivity. Qed.

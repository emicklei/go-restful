(* C03 — best match: literals beat variables, independent of registration order. *)
From Model Require Import Str Http Template Table Curly Router Registry.
From Spec Require Import RouteSpec RankSpec.
From Proofs Require Import RouterProofs RankProofs RankRouteProofs JsrOutcomeProofs OrderProofs.
From Coq Require Import Permutation.

(* Service level, CurlyRouter: the service SelectRoute works with has the greatest score
   among the services that claim the URL, so a service is never chosen when another
   claiming service scores strictly higher; and the score rewards literals:
   - two claiming roots of the same length that agree except that one has a literal
     where the other has a plain variable: the literal one scores strictly higher;
   - a claiming root that extends another claiming root scores strictly higher.
   Together: a literal root beats a variable root, a longer matching root beats its
   own prefix, whatever the registration order. *)
Definition C03_best_service_statement : Prop :=
  forall (O : oracles) (qts : list str) (wss : list service) (w : service),
    detect_web_service O qts wss = Some w ->
    In w wss /\ fst (compute_webservice_score O qts (tokenize (s_root w))) = true /\
    forall w', In w' wss -> fst (compute_webservice_score O qts (tokenize (s_root w'))) = true ->
               snd (compute_webservice_score O qts (tokenize (s_root w'))) <=
               snd (compute_webservice_score O qts (tokenize (s_root w))).
Theorem C03_best_service : C03_best_service_statement.
Proof. exact detect_web_service_max. Qed.
Print Assumptions C03_best_service.

Definition C03_literal_beats_variable_statement : Prop :=
  forall (O : oracles) (qts pre post : list str) (lit var : str),
    has_prefix var [lbrace] = true -> index_char var colon = None ->
    has_prefix lit [lbrace] = false ->
    fst (compute_webservice_score O qts (pre ++ lit :: post)) = true ->
    fst (compute_webservice_score O qts (pre ++ var :: post)) = true ->
    snd (compute_webservice_score O qts (pre ++ var :: post)) <
    snd (compute_webservice_score O qts (pre ++ lit :: post)).
Theorem C03_literal_beats_variable : C03_literal_beats_variable_statement.
Proof. intros O qts pre post lit var Hv _. now apply score_literal_beats_variable. Qed.
Print Assumptions C03_literal_beats_variable.

Definition C03_longer_root_beats_prefix_statement : Prop :=
  forall (O : oracles) (qts root ext : list str),
    ext <> [] ->
    fst (compute_webservice_score O qts root) = true ->
    fst (compute_webservice_score O qts (root ++ ext)) = true ->
    snd (compute_webservice_score O qts root) < snd (compute_webservice_score O qts (root ++ ext)).
Theorem C03_longer_root_beats_prefix : C03_longer_root_beats_prefix_statement.
Proof. exact score_longer_root_beats_prefix. Qed.
Print Assumptions C03_longer_root_beats_prefix.

(* Route level, both routers: the invoked route is never one that another eligible route of
   the same service dominates (a literal segment where the invoked one has a variable, the
   same shape otherwise) — whatever the registration order of the routes, and for every
   method / Content-Type / Accept / condition combination, since eligibility (admits) covers
   all four of detectRoute's filters.
   CurlyRouter: for well-formed templates without a custom verb (with one, the verb counts as
   a static segment and the claim is compared, not proved). *)
Definition C03_curly_route_statement : Prop :=
  forall (O : oracles) (t : table) (req : request) (w : service) (r2 : route) (ps : list (str * str)),
    t_router t = Curly ->
    route_request O t req = RInvoke w r2 ps ->
    forall r1, In r1 (s_routes w) ->
      wf_route w r1 = true -> wf_route w r2 = true ->
      no_verbs (route_tpl w r1) = true -> no_verbs (route_tpl w r2) = true ->
      admits O w r1 req = true ->
      dominates (route_tpl w r1) (route_tpl w r2) = false.
Theorem C03_curly_route : C03_curly_route_statement.
Proof. intros O t req w r2 ps Ht [Es _]%route_request_invoke. exact (curly_select_route_not_dominated O t req w r2 Ht Es). Qed.
Print Assumptions C03_curly_route.

(* RouterJSR311: under the measured premise that path_expression.go's tokens are the
   documented reading of the service's templates (jsr_all_agree). *)
Definition C03_jsr_route_statement : Prop :=
  forall (O : oracles) (t : table) (req : request) (w : service) (r2 : route) (ps : list (str * str)),
    t_router t = Jsr311 ->
    route_request O t req = RInvoke w r2 ps ->
    jsr_all_agree w = true ->
    forall r1, In r1 (s_routes w) ->
      jsr_admits O w r1 req = true ->
      dominates (jsr_tpl (r_rel r1)) (jsr_tpl (r_rel r2)) = false.
Theorem C03_jsr_route : C03_jsr_route_statement.
Proof. intros O t req w r2 ps Ht [Es _]%route_request_invoke. exact (jsr_select_route_not_dominated O t req w r2 Ht Es). Qed.
Print Assumptions C03_jsr_route.

(* Order independence, proved outside the tie class.  [tbl_perm t t']: t' is t with its services
   registered in another order and, inside each service, its routes registered in another order.
   When no two routes of one method in a service have the same path (keys_distinct: distinct
   (method, template) pairs) and no two claiming services tie (CurlyRouter, top_unique: one
   service has the greatest score — the complement is the class of K-C03-1; RouterJSR311,
   jsr_keys_unique: distinct roots, and no two matching roots with equal (groups, literal
   characters, variables) — never the case for different literal roots matching one URL), every
   request gets the same outcome from t and t': the same
   route function with the same parameter map from the same service, or the same error with the
   same Allow set.  The proofs do not depend on Go's sort algorithm beyond "insertion by Less":
   both Less relations are strict orders (byte-wise string "<" included), an insertion sort by
   a strict order is sorted for every input order, and the first candidate passing detectRoute's
   filters is then the greatest passing one. *)
Definition C03_order_curly_statement : Prop :=
  forall (O : oracles) (t t' : table) (req : request),
    t_router t = Curly -> t_router t' = Curly ->
    tbl_perm t t' ->
    keys_distinct t = true ->
    top_unique O (tokenize (rq_path req)) (t_services t) = true ->
    routed_equiv_perm (route_request O t req) (route_request O t' req).
Theorem C03_order_curly : C03_order_curly_statement.
Proof.
  intros O t t' req Hr Hr' Hp Hk Ht.
  exact (curly_order_independent O t t' req Hr Hr' Hp (keys_distinct_NoDup t Hk) (top_unique_no_tie O _ _ Ht)).
Qed.
Print Assumptions C03_order_curly.

Definition C03_order_jsr_statement : Prop :=
  forall (O : oracles) (t t' : table) (req : request),
    t_router t = Jsr311 -> t_router t' = Jsr311 ->
    tbl_perm t t' ->
    keys_distinct t = true ->
    jsr_keys_unique O (rq_path req) (t_services t) = true ->
    routed_equiv_perm (route_request O t req) (route_request O t' req).
Theorem C03_order_jsr : C03_order_jsr_statement.
Proof.
  intros O t t' req Hr Hr' Hp Hk Hj. destruct (jsr_keys_unique_sound O _ _ Hj) as [Hnd Hnt].
  exact (jsr_order_independent O t t' req Hr Hr' Hp (keys_distinct_NoDup t Hk) Hnd Hnt).
Qed.
Print Assumptions C03_order_jsr.

(* The order-independence half at full strength — "for tables with distinct (method,
   template) pairs and roots of pairwise different shape, every permutation of the
   registration order gives every request the same outcome" — is FALSE of the faithful
   model and of the code (known finding K-C03-1): omitted literal positions of equal
   total weight tie, and the strict '>' keeps the first registered service. *)
Definition C03_order_statement : Prop :=
  forall (O : oracles) (t t' : table) (req : request),
    t_router t = Curly -> t_router t' = Curly ->
    Permutation (t_services t) (t_services t') ->
    c03_in_scope t = true ->
    route_request O t req = route_request O t' req.

Definition O0 : oracles := {| o_lower := lower_ascii; o_rx := fun _ _ => false; o_rxfull := fun _ _ => false |}.
Definition mk (id : Z) (m rel : string) : route :=
  {| r_id := id; r_method := L m; r_rel := L rel; r_consumes := []; r_produces := [];
     r_conds := []; r_noct := []; r_enc := None |}.
Definition w1 : service := {| s_root := L "/{a}/x/y/{b}"; s_routes := [mk 1 "GET" "/"] |}.
Definition w2 : service := {| s_root := L "/p/{c}/{d}/q"; s_routes := [mk 2 "GET" "/"] |}.

Theorem C03_refuted_score_tie : ~ C03_order_statement.
Proof.
  intros H.
  specialize (H O0 {| t_router := Curly; t_services := [w1; w2] |} {| t_router := Curly; t_services := [w2; w1] |}
                {| rq_method := L "GET"; rq_path := L "/p/x/y/q"; rq_headers := []; rq_clen := 0 |}
                eq_refl eq_refl (perm_swap _ _ _) eq_refl).
  vm_compute in H. discriminate H.
Qed.
Print Assumptions C03_refuted_score_tie.

(* the premises of the route-level theorems hold on a concrete table, in both registration
   orders: /u/me beats /u/{id} *)
Example C03_route_example :
  let me := mk 1 "GET" "/me" in let id := mk 2 "GET" "/{id}" in
  let rq := {| rq_method := L "GET"; rq_path := L "/u/me"; rq_headers := []; rq_clen := 0 |} in
  forall router, In router [Curly; Jsr311] ->
  forall rs, In rs [[me; id]; [id; me]] ->
  let w := {| s_root := L "/u"; s_routes := rs |} in
  let t := {| t_router := router; t_services := [w] |} in
  (exists ps, route_request O0 t rq = RInvoke w me ps)
  /\ wf_route w me = true /\ wf_route w id = true
  /\ no_verbs (route_tpl w me) = true /\ no_verbs (route_tpl w id) = true
  /\ admits O0 w id rq = true /\ jsr_admits O0 w id rq = true /\ jsr_all_agree w = true
  /\ dominates (route_tpl w me) (route_tpl w id) = true
  /\ dominates (jsr_tpl (r_rel me)) (jsr_tpl (r_rel id)) = true.
Proof.
  intros me id rq router Hr rs Hrs.
  destruct Hr as [<-|[<-|[]]]; destruct Hrs as [<-|[<-|[]]]; vm_compute; repeat split; eexists; reflexivity.
Qed.

(* the premises of the order theorems hold on a concrete table with crossed shapes (/a/{x} and
   /{y}/b, the routes of seed C03-c), two services, and a request both routes match *)
Example C03_order_example :
  let ra := mk 1 "GET" "/a/{x}" in let rb := mk 2 "GET" "/{y}/b" in let rc := mk 3 "POST" "/a/{x}" in
  let w := {| s_root := L "/s"; s_routes := [ra; rb; rc] |} in
  let w' := {| s_root := L "/s"; s_routes := [rc; rb; ra] |} in
  let v := {| s_root := L "/s/q"; s_routes := [mk 4 "GET" "/"] |} in
  let rq := {| rq_method := L "GET"; rq_path := L "/s/a/b"; rq_headers := []; rq_clen := 0 |} in
  forall router, In router [Curly; Jsr311] ->
  let t := {| t_router := router; t_services := [w; v] |} in
  let t' := {| t_router := router; t_services := [v; w'] |} in
  tbl_perm t t'
  /\ keys_distinct t = true
  /\ top_unique O0 (tokenize (rq_path rq)) (t_services t) = true
  /\ jsr_keys_unique O0 (rq_path rq) (t_services t) = true
  /\ (exists x r ps, route_request O0 t rq = RInvoke x r ps).
Proof.
  intros ra rb rc w w' v rq router Hr t t'.
  split.
  { exists [w'; v]. split.
    - constructor; [|constructor; [|constructor]].
      + split; [reflexivity|]. apply Permutation_rev.
      + split; reflexivity.
    - apply perm_swap. }
  destruct Hr as [<-|[<-|[]]]; vm_compute; repeat split; eexists; eexists; eexists; reflexivity.
Qed.

(* Without the restriction to templates without custom verb the route-level claim is FALSE of the faithful model
   and of the code (known finding K-C03-2, found by the thorough tier): the verb of {v}:x counts as a static
   segment, so it ties with the literal "A:x" on the static count, and Less then prefers MORE parameters. *)
Definition C03_curly_route_all_templates_statement : Prop :=
  forall (O : oracles) (t : table) (req : request) (w : service) (r2 : route) (ps : list (str * str)),
    t_router t = Curly ->
    route_request O t req = RInvoke w r2 ps ->
    forall r1, In r1 (s_routes w) ->
      wf_route w r1 = true -> wf_route w r2 = true ->
      admits O w r1 req = true ->
      dominates (route_tpl w r1) (route_tpl w r2) = false.

Theorem C03_refuted_custom_verb : ~ C03_curly_route_all_templates_statement.
Proof.
  intros H.
  pose (rl := mk 2 "PATCH" "/A:x/"). pose (rv := mk 4 "PATCH" "/{v}:x").
  pose (w := {| s_root := L "/{name}/{k}"; s_routes := [rl; rv] |}).
  pose (rq := {| rq_method := L "PATCH"; rq_path := L "/ab/a.b/A:x"; rq_headers := []; rq_clen := 0 |}).
  assert (E : exists ps, route_request O0 {| t_router := Curly; t_services := [w] |} rq = RInvoke w rv ps)
    by (vm_compute; eexists; reflexivity).
  destruct E as (ps & E).
  specialize (H O0 {| t_router := Curly; t_services := [w] |} rq w rv ps eq_refl E rl (or_introl eq_refl) eq_refl eq_refl eq_refl).
  vm_compute in H. discriminate H.
Qed.
Print Assumptions C03_refuted_custom_verb.

(* Through ServeHTTP the ServeMux stands in front of the routers, and what it knows depends on the ORDER of the Add
   calls: once a service whose pattern is "/" is registered, later services get no pattern of their own.  The
   order-independence clause, stated for ServeHTTP over the registration model (Registry.v), is FALSE of the faithful
   model and of the code (known finding K-C03-3; Dispatch is not affected, see C03_order_curly / C03_order_jsr): *)
Definition C03_order_servehttp_statement : Prop :=
  forall (O : oracles) (rt : router) (adds adds' : list regop) (s s' : cstate) (req : request),
    Permutation adds adds' ->
    (forall o, In o adds -> exists root routes, o = RAdd root routes) ->
    cs_run cs_init adds 0 = (s, None) -> cs_run cs_init adds' 0 = (s', None) ->
    serve_http O rt s req = serve_http O rt s' req.

Theorem C03_refuted_root_service_position : ~ C03_order_servehttp_statement.
Proof.
  intros H.
  pose (a1 := RAdd (L "/") []). pose (a2 := RAdd (L "/a/") [mk 2 "POST" "/"]).
  specialize (H O0 Jsr311 [a1; a2] [a2; a1] (fst (cs_run cs_init [a1; a2] 0)) (fst (cs_run cs_init [a2; a1] 0))
                {| rq_method := L "POST"; rq_path := L "/a"; rq_headers := []; rq_clen := 0 |} (perm_swap a2 a1 [])).
  assert (Hadds : forall o, In o [a1; a2] -> exists root routes, o = RAdd root routes).
  { intros o [<-|[<-|[]]]; eexists; eexists; reflexivity. }
  specialize (H Hadds eq_refl eq_refl). vm_compute in H. discriminate H.
Qed.
Print Assumptions C03_refuted_root_service_position.

(* C10 — a panic anywhere in the chain becomes one 500 and leaves the container usable.
   (partial: Go's panic/defer/recover is modelled as the [Done]/[Panicked] result with the
   defers of dispatch written out in registration order) *)
From Model Require Import Str Http Table Dispatch.
From Proofs Require Import DispatchProofs ServeProofs PurityProofs.

(* recovery on (and a recover handler that does not panic itself): no panic escapes
   Dispatch / ServeHTTP, wherever it is raised — any filter before or after passing control
   on, the route function before or after writing, parameter extraction *)
Definition C10_no_escape_statement : Prop :=
  forall (O : oracles) (cfg : dcfg) (en : entry) (req : request) (s : rstate),
    routed_request cfg req -> d_recover cfg = true -> panic_free (d_recover_script cfg) = true ->
    exists s', serve O cfg en req s = Done s'.
Theorem C10_no_escape : C10_no_escape_statement.
Proof.
  intros O cfg en req s Hrt Hr Hp. destruct en; [now apply dispatch_no_escape|].
  rewrite serve_ServeHTTP_eq, !mux_target_routed by exact Hrt. destruct (d_encoding cfg); [|now apply dispatch_no_escape].
  edestruct dispatch_no_escape as (s2 & ->); [exact Hr|exact Hp|]. eexists; reflexivity.
Qed.
Print Assumptions C10_no_escape.

(* the recover handler is called at most once per request, and exactly once with the
   status it sets reaching the client when nothing had been written before the panic *)
Definition C10_once_statement : Prop :=
  (forall O cfg req already s,
     st_recovered (state_of (dispatch O cfg req already s)) <= S (st_recovered s)) /\
  (forall O cfg req already s m s1 n rest,
     d_recover cfg = true -> d_recover_script cfg = AStatus n :: rest ->
     dispatch_body O cfg req already s = Panicked m s1 -> st_status s1 = None ->
     st_status (state_of (dispatch O cfg req already s)) = Some n /\
     st_recovered (state_of (dispatch O cfg req already s)) = S (st_recovered s1)).
Theorem C10_once : C10_once_statement.
Proof.
  split.
  - intros O cfg req already s. destruct (recovered_dispatch O cfg req already s) as [-> | ->]; auto.
  - intros O cfg req already s m s1 n rest Hr Hs Hb Hn. rewrite dispatch_eq, Hb, state_of_closing. cbn [recovering].
    rewrite Hr, Hs. cbn [run_actions run_action bind]. split.
    + apply status_close_comp, status_run_actions. unfold write_header. cbn. now rewrite Hn.
    + rewrite recovered_close_comp, (book_recovered _ _ (book_run_actions _ _)).
      exact (book_recovered _ _ (book_write_header _ _)).
Qed.
Print Assumptions C10_once.

(* recovery off: the panic reaches the caller with the same value *)
Definition C10_propagates_statement : Prop :=
  forall O cfg req already s m s1,
    d_recover cfg = false -> dispatch_body O cfg req already s = Panicked m s1 ->
    exists s', dispatch O cfg req already s = Panicked m s'.
Theorem C10_propagates : C10_propagates_statement.
Proof.
  intros O cfg req already s m s1 Hr Hb. rewrite dispatch_eq, Hb. cbn [recovering]. rewrite Hr. eexists; reflexivity.
Qed.
Print Assumptions C10_propagates.

(* no compressor lost: after EVERY request — panicking or not, recovered or not, through
   either entry point — every acquired compressor has been released exactly once and its
   stream is closed (complete frame); so over any history of requests the ledger stays
   balanced (the invariant is re-established by each request from any balanced state) *)
Definition C10_ledger_statement : Prop :=
  forall O cfg en req s, clean s -> balanced (state_of (serve O cfg en req s)).
Theorem C10_ledger : C10_ledger_statement.
Proof. exact serve_balanced. Qed.
Print Assumptions C10_ledger.

Example C10_example :
  let O := {| o_lower := lower_ascii; o_rx := fun _ _ => false; o_rxfull := fun _ _ => false |} in
  let cfg := {| d_table := {| t_router := Curly; t_services := [ {| s_root := L "/"; s_routes :=
                   [ {| r_id := 1; r_method := L "GET"; r_rel := L "/a"; r_consumes := []; r_produces := [];
                        r_conds := []; r_noct := []; r_enc := None |} ] |} ] |};
                d_cfilters := [ {| f_id := L "c0"; f_pre := []; f_pass := true; f_post := [APanic (L "late")]; f_fresh := false; f_mw := 0; f_wrap := false |} ];
                d_sfilters := []; d_rfilters := []; d_handlers := [(1%Z, [AWrite (L "partial")])];
                d_encoding := true; d_recover := true; d_recover_script := [AStatus 500; AWrite (L "<r>")]; d_condpanic := []; d_plain := [] |} in
  let req := {| rq_method := L "GET"; rq_path := L "/a"; rq_headers := [(H_AcceptEncoding, L "gzip")]; rq_clen := 0 |} in
  let s := state_of (serve O cfg EServeHTTP req (st0 [])) in
  st_recovered s = 1 /\ st_acq s = 1 /\ st_rel s = 1 /\
  st_comp s = Some (Gzip, [L "partial"; L "<r>"], true) /\ st_status s = Some 200%Z.
Proof. vm_compute. repeat split. Qed.

(* "afterwards the container serves every following request exactly as it would have otherwise": in any history,
   with any number of panicking requests in it (recovered, or propagated to a caller that goes on using the
   container), raised anywhere, before or after output — every request is answered exactly as alone on a fresh
   container.  (serve_all carries the log and the acquire / release / recover counters on from request to request;
   this is the instance of C19_history that C10 states.) *)
Definition C10_following_requests_statement : Prop :=
  forall O cfg hs w i en req h,
    nth_error hs i = Some (en, req, h) ->
    exists wi r, nth_error (fst (serve_all O cfg hs w)) i = Some (wi, r) /\
                 answer_in wi r = answer (serve O cfg en req (st0 h)).
Theorem C10_following_requests : C10_following_requests_statement.
Proof. exact history_independent. Qed.
Print Assumptions C10_following_requests.

(* C07 — encoded responses decode to exactly what was written, and are labelled so.
   (partial: the codec contract — dec (enc b) = b, one frame per Close — is compress/gzip's) *)
From Model Require Import Str Http Table Router Dispatch.
From Spec Require Import DispatchSpec.
From Proofs Require Import DispatchProofs ServeProofs LabelProofs.

(* Compressor discipline of a whole request, for both entry points, both routers and EVERY
   outcome (handler success, routing error, panic before/after output, with and without
   recovery): starting with no compressor installed,
   - at most one compressor is acquired (never encoded twice),
   - whatever was acquired has been released exactly once and its stream closed (one frame),
   - a compressor is installed only if [wants_compressed] chose its coding (the request's
     Accept-Encoding mentions it and the writer carried no Content-Encoding on arrival), and
     only if encoding was enabled: through Dispatch for the selected route (route setting
     over container setting); through ServeHTTP for the container or the route. *)
Definition C07_discipline_statement : Prop :=
  forall (O : oracles) (cfg : dcfg) (en : entry) (req : request) (s : rstate),
    clean s ->
    let r := serve O cfg en req s in
    balanced (state_of r) /\
    st_acq (state_of r) <= S (st_acq s) /\
    (comp_shape (state_of r) = None -> st_acq (state_of r) = st_acq s) /\
    (forall c cl, comp_shape (state_of r) = Some (c, cl) ->
       cl = true /\ st_acq (state_of r) = S (st_acq s) /\ wants_compressed req s = Some c /\
       match en with
       | EDispatch => exists w r0, select_route O (d_table cfg) req = inl (w, r0) /\ enabled_for cfg r0 = true
       | EServeHTTP => d_encoding cfg = true \/
                       exists w r0, select_route O (d_table cfg) req = inl (w, r0) /\ enabled_for cfg r0 = true
       end).
Theorem C07_discipline : C07_discipline_statement.
Proof.
  intros O cfg en req s [Hb Hc] r.
  destruct (request_ledger_discipline _ _ _ Hb (ledger_serve O cfg en req s Hc)) as (B & Le & N & Sm).
  split; [exact B|]. split; [exact Le|]. split; [exact N|].
  intros c cl H. destruct (Sm c cl H) as (Hcl & A & E). split; [exact Hcl|]. split; [exact A|].
  destruct (serve_enabled O cfg en req) eqn:En; [|discriminate E]. exact (conj E (serve_enabled_true O cfg en req En)).
Qed.
Print Assumptions C07_discipline.

(* the coding is one the request asked for, and nothing is encoded when the writer already
   carried a (non-empty) Content-Encoding *)
Definition C07_wanted_statement : Prop :=
  forall req s c, wants_compressed req s = Some c ->
    accepts req (coding_name c) = true /\
    (hvalues H_ContentEncoding (st_hdr s) = [] \/ exists rest, hvalues H_ContentEncoding (st_hdr s) = [] :: rest).
Theorem C07_wanted : C07_wanted_statement.
Proof.
  intros req s c H. unfold wants_compressed in H. split.
  - (* the writer's first Content-Encoding value is empty; then by where "gzip" and "deflate" stand in Accept-Encoding *)
    destruct (match hvalues _ _ with [] => _ | _ => _ end); [|discriminate H]. unfold accepts, contains. revert H.
    destruct (index _ (L "gzip")) as [g|] eqn:Eg, (index _ (L "deflate")) as [z|] eqn:Ez; [destruct (Nat.ltb g z)|..];
      intros [= <-]; cbn [coding_name]; now rewrite ?Eg, ?Ez.
  - destruct (hvalues _ _) as [|[|x v] rest]; [eauto|eauto|discriminate H].
Qed.
Print Assumptions C07_wanted.

(* while a compressor is installed nothing reaches the underlying writer directly, whatever
   filters and handler do (every write between acquisition and close goes through it) *)
Definition C07_no_bypass_statement : Prop :=
  forall fs target s,
    raw_guard s <> None ->
    (forall s0, raw_guard s0 <> None -> raw_guard (state_of (target s0)) = raw_guard s0) ->
    raw_guard (state_of (run_chain fs target s)) = raw_guard s.
Theorem C07_no_bypass : C07_no_bypass_statement.
Proof.
  intros fs target s Hs Ht. apply (inv_run_chain (fun x => raw_guard x = raw_guard s) (fun _ => True)); auto.
  - intros l s0 _ <-. apply guard_run_actions.
  - intros s0 E. rewrite <- E. apply Ht. now rewrite E.
Qed.
Print Assumptions C07_no_bypass.

(* The FULL statement — "encoding was enabled for that request, the route's own setting
   overriding the container's" through every entry point — is FALSE of the faithful model
   and of the code: ServeHTTP installs the compressor before the route is known
   (known finding K-C07-1). *)
Definition C07_full_enabled_statement : Prop :=
  forall (O : oracles) (cfg : dcfg) (en : entry) (req : request) (s : rstate) c cl,
    clean s -> comp_shape (state_of (serve O cfg en req s)) = Some (c, cl) ->
    encoding_enabled O cfg req = true.

Definition O0 : oracles := {| o_lower := lower_ascii; o_rx := fun _ _ => false; o_rxfull := fun _ _ => false |}.
Definition cfg_off : dcfg :=
  {| d_table := {| t_router := Curly;
                   t_services := [ {| s_root := L "/"; s_routes :=
                      [ {| r_id := 1; r_method := L "GET"; r_rel := L "/a"; r_consumes := []; r_produces := [];
                           r_conds := []; r_noct := []; r_enc := Some false |} ] |} ] |};
     d_cfilters := []; d_sfilters := []; d_rfilters := []; d_handlers := [(1%Z, [AWrite (L "x")])];
     d_encoding := true; d_recover := false; d_recover_script := []; d_condpanic := []; d_plain := [] |}.
Definition req_gz : request :=
  {| rq_method := L "GET"; rq_path := L "/a"; rq_headers := [(H_AcceptEncoding, L "gzip")]; rq_clen := 0 |}.

Theorem C07_refuted_servehttp_route_off : ~ C07_full_enabled_statement.
Proof.
  intros H. specialize (H O0 cfg_off EServeHTTP req_gz (st0 []) Gzip true (conj eq_refl eq_refl) eq_refl).
  vm_compute in H. discriminate H.
Qed.
Print Assumptions C07_refuted_servehttp_route_off.

(* the same request through Dispatch is not encoded *)
Example C07_dispatch_respects_route :
  comp_shape (state_of (serve O0 cfg_off EDispatch req_gz (st0 []))) = None.
Proof. reflexivity. Qed.

(* The label.  For every configuration whose scripts leave the Content-Encoding header alone ([cfg_keeps_ce]: no
   AddHeader / Header().Del on that name in any filter, route function, recover handler or plain handler), through both
   entry points, both routers and every outcome (success, routing error, panic with and without recovery): when the
   response leaves with a compressor installed, its Content-Encoding header is exactly that coding's name, once; when
   none is installed, the header is what the writer carried on arrival — the container adds no Content-Encoding. *)
Definition C07_label_statement : Prop :=
  forall (O : oracles) (ce0 : list str) (cfg : dcfg) (en : entry) (req : request) (s : rstate),
    cfg_keeps_ce cfg = true -> st_comp s = None -> hvalues H_ContentEncoding (st_hdr s) = ce0 ->
    match st_comp (state_of (serve O cfg en req s)) with
    | Some (c, _, _) => hvalues H_ContentEncoding (st_hdr (state_of (serve O cfg en req s))) = [coding_name c]
    | None => hvalues H_ContentEncoding (st_hdr (state_of (serve O cfg en req s))) = ce0
    end.
Theorem C07_label : C07_label_statement.
Proof. intros O ce0 cfg en req s Hk Hn <-. exact (serve_label O _ cfg en req s Hk (lab_start s Hn)). Qed.
Print Assumptions C07_label.

(* not vacuous: an encoded answer to a routing error (405 with Allow) written around by a filter that adds headers *)
Example C07_label_example :
  let cfg := {| d_table := {| t_router := Curly; t_services := [ {| s_root := L "/"; s_routes :=
                   [ {| r_id := 1; r_method := L "GET"; r_rel := L "/a"; r_consumes := []; r_produces := [];
                        r_conds := []; r_noct := []; r_enc := None |} ] |} ] |};
                d_cfilters := [ {| f_id := L "c0"; f_pre := [AHeader (L "X-A") (L "1"); ADelHeader (L "X-B")]; f_pass := true;
                                   f_post := [AWrite (L "<tail>")]; f_fresh := false; f_mw := 0; f_wrap := false |} ];
                d_sfilters := []; d_rfilters := []; d_handlers := [(1%Z, [AWrite (L "<body>")])];
                d_encoding := true; d_recover := true; d_recover_script := [AStatus 500]; d_condpanic := []; d_plain := [] |} in
  let req := {| rq_method := L "POST"; rq_path := L "/a"; rq_headers := [(H_AcceptEncoding, L "deflate")]; rq_clen := 0 |} in
  let s := state_of (serve O0 cfg EServeHTTP req (st0 [])) in
  cfg_keeps_ce cfg = true /\ st_status s = Some 405%Z /\
  st_comp s = Some (Deflate, [[]; L "<tail>"], true) /\
  hvalues H_ContentEncoding (st_hdr s) = [L "deflate"] /\ hvalues H_Allow (st_hdr s) = [L "GET"].
Proof. vm_compute. repeat split. Qed.

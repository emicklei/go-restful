(* C12 — services and routes can change while requests are being served.
   (partial: the lock / access table comes from the translator; Go's memory model and the
   sync.RWMutex implementation are assumed; the behavioural half rests on the stress run) *)
From Model Require Import Str Http Template Table Curly DetectRoute Jsr311 Router Conc Linear.
From Proofs Require Import ConcProofs FrameProofs LinearProofs.
From Coq Require Import Lia.
Open Scope string_scope.

(* No data race: for ANY table of access paths that passes the per-path check (every write
   holds the lock guarding its location exclusively, every read holds it at least shared),
   any number of threads each running any of the paths, and any schedule: no two threads are
   ever simultaneously about to perform conflicting accesses to the same location. *)
Definition C12_no_race_statement : Prop :=
  forall (paths : list (list ev)) (sched : list nat) i j ti tj a b,
    forallb (check_path hempty) paths = true ->
    let ts := crun (init_threads paths) sched in
    i <> j -> nth_error ts i = Some ti -> nth_error ts j = Some tj ->
    next_ev ti = Some a -> next_ev tj = Some b -> conflicting a b = false.
Theorem C12_no_race : C12_no_race_statement.
Proof. exact lockset_sound. Qed.
Print Assumptions C12_no_race.

(* No deadlock: under the same check (no lock re-acquired while held, the container lock
   never requested while a routes lock is held, everything released at the end) some thread
   can always move unless all have finished. *)
Definition C12_no_deadlock_statement : Prop :=
  forall (paths : list (list ev)) (sched : list nat),
    forallb (check_path hempty) paths = true ->
    let ts := crun (init_threads paths) sched in
    (exists i t, nth_error ts i = Some t /\ snd t <> []) -> exists i ts', cstep ts i = Some ts'.
Theorem C12_no_deadlock : C12_no_deadlock_statement.
Proof. intros paths sched H ts. apply no_deadlock, reachable_paths_ok, H. Qed.
Print Assumptions C12_no_deadlock.

(* Frame: requests to services that are not being changed are answered as if no change were happening.
   For both routers: two registration states with the same roots in the same order whose services are identical
   except those marked [touched] give the same routing answer to every request whose URL is claimed by an
   untouched service — whatever was added to or removed from the touched ones. (Route selection reads the service
   list once, under the container's read lock, and the routes of the claiming service once, under its routes
   lock: the answer is that of the state in which those reads happened.) *)
Definition C12_frame_statement : Prop :=
  forall (O : oracles) (touched : str -> bool) (t t' : table) (req : request),
    t_router t = t_router t' ->
    Forall2 (untouched_same touched) (t_services t) (t_services t') ->
    (forall w, match t_router t with
               | Curly => detect_web_service O (tokenize (rq_path req)) (t_services t) = Some w
               | Jsr311 => exists fin, detect_dispatcher O (rq_path req) (t_services t) = Some (w, fin)
               end -> touched (s_root w) = false) ->
    select_route O t req = select_route O t' req.
Theorem C12_frame : C12_frame_statement.
Proof. exact frame. Qed.
Print Assumptions C12_frame.

(* the check is not vacuous, and it rejects an unguarded read *)
Example C12_example :
  check_path hempty [Acq WS R; Rd LWebServices "a"; Acq RT R; Rd LRoutes "b"; Rel RT R; Rel WS R] = true /\
  check_path hempty [Acq WS R; Rd LWebServices "a"; Rd LRoutes "curly.go:49"; Rel WS R] = false /\
  check_path hempty [Acq RT W; Acq WS R; Rel WS R; Rel RT W] = false.
Proof. repeat split. Qed.

(* Linearisation: every request is answered according to a registration state that existed at
   some moment during that request.  Model/Linear.v: requests (RLock; read the service list; let
   the router find the claiming service and read its routes; RUnlock) interleaved, one atomic
   step at a time under ANY schedule, with any number of mutator threads performing Add /
   Remove (under the write lock) and Route / RemoveRoute (replacing a service's routes, no
   container lock).  A finished request carries its answer and the ghost [lin]: the global
   service list at its own step "read the routes of the claiming service" — a state that
   existed during the request.  The answer is SelectRoute's answer in exactly that state, for
   both routers.  (The proof needs the read lock twice: roots cannot change while a snapshot is
   held; and the frame theorem: routes of other services changing meanwhile do not matter.) *)
Definition C12_linearisation_statement : Prop :=
  forall (O : oracles) (rtr : router) (wss : list service) (ths : list thread) (sched : list nat)
         (req : request) (ans : (service * route) + rerr) (lin : list service),
    forallb fresh_thread ths = true ->
    In (TReq req (QDone ans lin)) (snd (srun O rtr sched ({| g_svcs := wss; g_cw := false; g_cr := 0 |}, ths))) ->
    ans = select_route O {| t_router := rtr; t_services := lin |} req.
Theorem C12_linearisation : C12_linearisation_statement.
Proof.
  intros O rtr wss ths sched req ans lin Hf Hin. pose proof (run_inv O rtr sched _ (init_inv O rtr wss ths Hf)) as H.
  destruct (srun O rtr sched _) as [g ths']. destruct H as (_ & _ & _ & Hg). exact (Hg _ Hin).
Qed.
Print Assumptions C12_linearisation.

(* ... and while a mutator holds the write lock no request holds a snapshot *)
Definition C12_exclusion_statement : Prop :=
  forall (O : oracles) (rtr : router) (wss : list service) (ths : list thread) (sched : list nat),
    forallb fresh_thread ths = true ->
    let st := srun O rtr sched ({| g_svcs := wss; g_cw := false; g_cr := 0 |}, ths) in
    total holds_write (snd st) <= 1 /\ (total holds_write (snd st) = 1 -> total holds_read (snd st) = 0).
Theorem C12_exclusion : C12_exclusion_statement.
Proof.
  intros O rtr wss ths sched Hf st. pose proof (run_inv O rtr sched _ (init_inv O rtr wss ths Hf)) as H. fold st in H.
  destruct st as [g ths']. destruct H as (Hcr & Hcw & Hw & _). cbn [snd]. rewrite Hw.
  destruct (g_cw g).
  - split; [lia|]. intros _. rewrite <- Hcr. now apply Hcw.
  - split; [lia|discriminate].
Qed.
Print Assumptions C12_exclusion.

(* a concrete schedule: a request to /a/x is interleaved with RemoveRoute on its own service
   (after its routes were read: still served) and with Remove of the service; a second request
   starts after the removal and is answered 404; the writer is blocked while the first holds
   the read lock *)
Example C12_linearisation_example :
  let O := {| o_lower := lower_ascii; o_rx := fun _ _ => false; o_rxfull := fun _ _ => false |} in
  let L s := list_ascii_of_string s in
  let r1 := {| r_id := 1%Z; r_method := L "GET"; r_rel := L "/x"; r_consumes := []; r_produces := [];
               r_conds := []; r_noct := []; r_enc := None |} in
  let w := {| s_root := L "/a"; s_routes := [r1] |} in
  let rq := {| rq_method := L "GET"; rq_path := L "/a/x"; rq_headers := []; rq_clen := 0%Z |} in
  let ths := [TReq rq QStart; TMut None [OSetRoutes (L "/a") []; ORemove (L "/a")]; TReq rq QStart] in
  let final := srun O Curly [0; 0; 0; 1; 1; 0; 1; 1; 2; 2; 2; 2]%nat ({| g_svcs := [w]; g_cw := false; g_cr := 0 |}, ths) in
  match snd final with
  | [TReq _ (QDone (inl (w1, r)) lin1); TMut None []; TReq _ (QDone (inr E404) [])] => lin1 = [w] /\ r = r1 /\ w1 = w
  | _ => False
  end.
Proof. vm_compute. repeat split. Qed.

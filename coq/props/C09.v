(* C09 — CORS preflight is answered by the filter alone and grants only what is allowed. *)
From Model Require Import Str Http Cors.
From Spec Require Import CorsSpec.
From Proofs Require Import CorsProofs.

(* For every ToLower oracle, configuration, list of methods routable at the URL
   ([computed] = Container.computeAllowedMethods) and request from an ALLOWED origin:
   - a preflight (OPTIONS with Access-Control-Request-Method) is answered by the
     filter: control is not passed on, whatever the rest of the chain is; it gets
     Allow-Methods, Allow-Headers (the requested list, verbatim) and the origin /
     credentials / expose / max-age headers exactly when it is granted, and no
     header at all otherwise;
   - any other request passes down the chain with exactly the actual-request
     headers added (each header name at most once, see C09_once). *)
Definition C09_statement : Prop :=
  forall (O : oracles) (c : cors_cfg) (computed : list str) (req : request),
    let origin := hget req H_Origin in
    allowed O c origin ->
    let d := cors_decide O c computed req in
    if is_preflight req then
      snd d = false /\
      (forall (resp : Type) (add : headers -> resp -> resp) (r : resp) next next',
          cors_filter O add c computed req r next = cors_filter O add c computed req r next') /\
      fst d = if preflight_grantedb O c computed req
              then [(H_ACAllowMethods, join [comma] (match c_methods c with [] => computed | m => m end));
                    (H_ACAllowHeaders, hget req H_ACRequestHeaders)] ++ opts_suffix O c origin
              else []
    else
      snd d = true /\ fst d = opts_suffix O c origin /\
      (forall (resp : Type) (add : headers -> resp -> resp) (r : resp) next,
          cors_filter O add c computed req r next = next req (add (opts_suffix O c origin) r)).

Theorem C09 : C09_statement.
Proof.
  intros O c computed req origin Hall d. apply is_origin_allowed_spec in Hall.
  subst d. unfold cors_filter. rewrite cors_decide_eq. fold origin. rewrite Hall.
  destruct (is_preflight req); repeat split.
Qed.
Print Assumptions C09.

(* "granted" is the property's condition: requested method among the allowed methods
   (configured, or else those routable at the URL) and every requested header (split on
   ',', spaces trimmed) among the allowed headers ignoring case, or the wildcard configured *)
Definition C09_granted_statement : Prop :=
  forall (O : oracles) c computed req,
  preflight_grantedb O c computed req = true <->
  In (hget req H_ACRequestMethod) (match c_methods c with [] => computed | m => m end) /\
  (forall hd, In hd (requested_headers req) ->
     In (L "*") (c_headers c) \/ exists e, In e (c_headers c) /\ o_lower O e = o_lower O hd).
Theorem C09_granted : C09_granted_statement.
Proof. exact preflight_granted_spec. Qed.
Print Assumptions C09_granted.

Definition C09_once_statement : Prop :=
  forall (O : oracles) c origin, NoDup (map fst (opts_suffix O c origin)).
Theorem C09_once : C09_once_statement.
Proof. intros O c origin. rewrite (opts_suffix_grant O c origin [] []). apply grant_nodup. Qed.
Print Assumptions C09_once.

Example C09_example :
  let O := {| o_lower := lower_ascii; o_rx := fun _ _ => false; o_rxfull := fun _ _ => false |} in
  let c := {| c_expose := []; c_headers := [L "Content-Type"]; c_domains := [];
              c_func := None; c_methods := []; c_maxage := 0; c_cookies := false |} in
  let rq (m h : string) := {| rq_method := L "OPTIONS"; rq_path := L "/r";
                 rq_headers := [(H_Origin, L "http://a"); (H_ACRequestMethod, L m); (H_ACRequestHeaders, L h)]; rq_clen := 0 |} in
  cors_decide O c [L "GET"; L "PUT"] (rq "PUT"%string " content-TYPE "%string)
    = ([(H_ACAllowMethods, L "GET,PUT"); (H_ACAllowHeaders, L " content-TYPE "); (H_ACAllowOrigin, L "http://a")], false)
  /\ cors_decide O c [L "GET"; L "PUT"] (rq "POST"%string ""%string) = ([], false)
  /\ cors_decide O c [L "GET"; L "PUT"] (rq "PUT"%string "X-Other"%string) = ([], false).
Proof. vm_compute. repeat split. Qed.

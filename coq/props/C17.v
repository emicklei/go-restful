(* C17 — Allow headers tell the truth about which methods are routable. *)
From Model Require Import Str Http Table DetectRoute Router Options.
From Proofs Require Import StrFacts OptionsProofs.

(* 405 part — proved at full strength, for both routers and EVERY table (not only the
   common fragment): the Allow list of a 405 response names exactly the methods for which
   a request to the same URL (same headers) is not answered 404 or 405 (a panic in parameter extraction is
   neither; on well-formed tables C02 excludes it). *)
Definition C17_allow405_statement : Prop :=
  forall (O : oracles) (t : table) (req : request) (allow : list str),
    route_request O t req = RError (E405 allow) ->
    forall m, In m allow <-> status_class (route_request O t (with_method req m)) = false.
Theorem C17_allow405 : C17_allow405_statement.
Proof.
  intros O t req allow H m. destruct (route_request_405 O t req allow H) as (w & l & Ec & Ed).
  rewrite status_class_candidates. cbn [rq_path with_method]. rewrite Ec. exact (detect_route_allow_truth l req allow Ed m).
Qed.
Print Assumptions C17_allow405.

(* the OPTIONS filter answers OPTIONS requests itself (does not pass control on, so no
   route function runs), listing computeAllowedMethods in Allow and
   Access-Control-Allow-Methods; every other method passes untouched *)
Definition C17_options_filter_statement : Prop :=
  forall (O : oracles) (t : table) (req : request),
  (rq_method req = L "OPTIONS" ->
     snd (options_decide O t req) = false /\
     hvalues H_Allow (fst (options_decide O t req)) = [join [comma] (compute_allowed_methods O t (rq_path req))] /\
     hvalues H_ACAllowMethods (fst (options_decide O t req)) = [join [comma] (compute_allowed_methods O t (rq_path req))]) /\
  (rq_method req <> L "OPTIONS" -> options_decide O t req = ([], true)).
Theorem C17_options_filter : C17_options_filter_statement.
Proof.
  intros O t req. unfold options_decide. split.
  - intros ->. split; [|split]; reflexivity.
  - intros Hn. apply str_eqb_neq in Hn. now rewrite Hn.
Qed.
Print Assumptions C17_options_filter.

(* The full statement for the OPTIONS filter — "the listed set equals the routable set,
   for every table of the fragment and every URL" — is FALSE of the faithful model and of
   the code (known findings K-C17-1, K-C17-2): *)
Definition C17_options_full_statement : Prop :=
  forall (O : oracles) (t : table) (req : request) (m : str),
    In m (compute_allowed_methods O t (rq_path req)) <->
    status_class (route_request O t (with_method req m)) = false.

Definition O0 : oracles := {| o_lower := lower_ascii; o_rx := fun _ _ => false; o_rxfull := fun _ _ => false |}.
Definition mk (id : Z) (m rel : string) : route :=
  {| r_id := id; r_method := L m; r_rel := L rel; r_consumes := []; r_produces := [];
     r_conds := []; r_noct := []; r_enc := None |}.
Definition rq0 (p : string) : request := {| rq_method := L "OPTIONS"; rq_path := L p; rq_headers := []; rq_clen := 0 |}.

(* nested literal roots: the filter lists GET although GET is answered 405 *)
Theorem C17_refuted_nested_roots : ~ C17_options_full_statement.
Proof.
  intros H.
  specialize (H O0 {| t_router := Curly;
                      t_services := [ {| s_root := L "/a"; s_routes := [mk 1 "GET" "/b/c"] |};
                                      {| s_root := L "/a/b"; s_routes := [mk 2 "POST" "/c"] |} ] |}
                (rq0 "/a/b/c") (L "GET")).
  vm_compute in H. discriminate (proj1 H (or_introl eq_refl)).
Qed.
Print Assumptions C17_refuted_nested_roots.

(* an empty segment under CurlyRouter: GET /a//b is routed, the filter lists nothing *)
Theorem C17_refuted_empty_segment : ~ C17_options_full_statement.
Proof.
  intros H.
  specialize (H O0 {| t_router := Curly;
                      t_services := [ {| s_root := L "/a"; s_routes := [mk 1 "GET" "/{v}/b"] |} ] |}
                (rq0 "/a//b") (L "GET")).
  vm_compute in H. exact (proj2 H eq_refl).
Qed.
Print Assumptions C17_refuted_empty_segment.

(* a route whose If-condition fails: every method is answered 404, the filter still lists the route's method
   (known finding K-C17-3: computeAllowedMethods does not consult conditions) *)
Theorem C17_refuted_failing_condition : ~ C17_options_full_statement.
Proof.
  intros H.
  specialize (H O0 {| t_router := Curly;
                      t_services := [ {| s_root := L "/"; s_routes :=
                         [ {| r_id := 1; r_method := L "GETALL"; r_rel := L "/"; r_consumes := []; r_produces := [];
                              r_conds := [false]; r_noct := []; r_enc := None |} ] |} ] |}
                (rq0 "/") (L "GETALL")).
  vm_compute in H. discriminate (proj1 H (or_introl eq_refl)).
Qed.
Print Assumptions C17_refuted_failing_condition.

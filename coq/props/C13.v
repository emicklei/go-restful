(* C13 — pooled compressors are never shared, lost twice, or a reason to block.
   (partial: the step structure of the provider methods comes from the translator; the
   framework's "release exactly once" is C07_discipline; sync.Pool / channel semantics are
   written out in Model.Pool) *)
From Model Require Import Pool.
From Proofs Require Import PoolProofs.
From Coq Require Import List Arith. Import ListNotations.

(* Exclusivity: for every capacity (0 and 1 included), every number of clients, every
   client program (even blocking ones) and every schedule: in every reachable state no object
   is idle twice, idle and held, or held by two clients. *)
Definition C13_exclusive_statement : Prop :=
  forall (cap : nat) (progs : list (list pstep)) (sched : list nat),
    let s := prun (pinit cap progs) sched in NoDup (ps_chan s ++ held_list s).
Theorem C13_exclusive : C13_exclusive_statement.
Proof.
  intros cap progs sched s. apply (NoDup_count_occ Nat.eq_dec). intros x.
  eapply Nat.le_trans; [apply (prun_invariant excl excl_step sched _ (excl_init cap progs))|].
  apply NoDup_count_occ, seq_NoDup.
Qed.
Print Assumptions C13_exclusive.

(* Non-blocking: if every provider method consists of always-enabled steps (non-blocking
   receive-or-new, try-send, sync.Pool Get/Put, length checks) then for every capacity, every
   number of clients, every number of rounds and every schedule no client is ever blocked. *)
Definition C13_nonblocking_statement : Prop :=
  forall (cap : nat) (progs : list (list pstep)) (sched : list nat) (i : nat),
    Forall (fun p => nb_prog p = true) progs -> blocked (prun (pinit cap progs) sched) i = false.
Theorem C13_nonblocking : C13_nonblocking_statement.
Proof. exact nonblocking. Qed.
Print Assumptions C13_nonblocking.

(* A release written as "check the length, then send" is NOT non-blocking: two clients,
   capacity 1, and the schedule acquire / acquire / check / check / send leaves the second
   sender blocked with nobody left to receive (the defect F1 of the unrepaired tree). *)
Theorem C13_check_then_send_refuted :
  exists sched,
    deadlocked (prun (pinit 1 [rounds_prog acq_prog rel_check_then_send 1; rounds_prog acq_prog rel_check_then_send 1]) sched) = true.
Proof. exists [0; 1; 0; 1; 0]. vm_compute. reflexivity. Qed.
Print Assumptions C13_check_then_send_refuted.

Example C13_example :
  let s := prun (pinit 1 [rounds_prog [PTryRecvElseNew] [PTrySend] 2; rounds_prog [PTryRecvElseNew] [PTrySend] 2]) [0; 1; 0; 1; 1; 0; 1; 0] in
  ps_chan s = [0] /\ forallb (fun c => negb (unfinished c)) (ps_clients s) = true /\ deadlocked s = false.
Proof. vm_compute. repeat split. Qed.

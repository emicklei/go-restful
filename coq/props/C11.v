(* C11 — registration state equals what a fresh container with the same content has. *)
From Model Require Import Str Http Table Registry.
From Proofs Require Import RegistryProofs.

(* For both routers, every oracle and every history of Container.Add / Remove /
   WebService.Route / RemoveRoute / Container.Handle in which a root is never added while it
   is registered (roots pairwise different) and plain-handler patterns are registered once and
   do not collide with what a service puts on the mux ([universe_ok], [ops_ok]):
   no operation panics or exits, building a fresh container with the same final services (in
   order, with their final routes) and plain handlers does not fail either, and the two
   answer EVERY request identically, through ServeHTTP (mux lookup incl. redirects, plain
   handlers, the mux's own 404, dispatch) and through Dispatch. *)
Definition C11_statement : Prop :=
  forall (O : oracles) (rt : router) (roots plainU : list str) (ops : list regop),
    universe_ok roots plainU = true -> (forall p, In p (handled ops) -> In p plainU) ->
    ops_ok roots plainU cs_init ops = true ->
    exists s sf,
      cs_run cs_init ops 0 = (s, None) /\ cs_fresh s = (sf, None) /\
      forall req, serve_http O rt s req = serve_http O rt sf req /\
                  serve_dispatch O rt s req = serve_dispatch O rt sf req.
Theorem C11 : C11_statement.
Proof.
  (* the second premise is not used: it follows from the third by induction over the history *)
  intros O rt roots plainU ops HU _ Hok.
  destruct (run_ok roots plainU ops cs_init 0 HU (cs_inv_init roots) Hok) as (s & Hrun & Hinv).
  destruct (fresh_ok roots s Hinv) as (sf & Hf & Hinvf & R & Ob & P).
  exists s, sf. split; [exact Hrun|]. split; [exact Hf|].
  intros req. now apply (same_content_same_answers roots O rt s sf req).
Qed.
Print Assumptions C11.

(* adding WebServices with pairwise different root paths never panics or exits, whatever
   their templates have in common (same fixed prefix, /a and /a/, variables, "/") *)
Definition C11_adds_statement : Prop :=
  forall (roots : list str) (routes : str -> list route),
    NoDup (map norm_root roots) ->
    exists s, cs_run cs_init (map (fun r => RAdd r (routes r)) roots) 0 = (s, None) /\
              cs_reg s = map norm_root roots.
Theorem C11_adds : C11_adds_statement.
Proof.
  intros roots routes Hnd.
  destruct (rebuild_ok (map norm_root roots) [] [] [] mux_is_empty) as (m & E & _); [intros q []|].
  eexists. split; [exact (run_adds routes roots cs_init 0 m _ Hnd E)|reflexivity].
Qed.
Print Assumptions C11_adds.

(* the mux answers depend only on which (pattern, target) pairs are registered, not on the
   order of registration *)
Definition C11_mux_order_statement : Prop :=
  forall m1 m2 url, mux_equiv m1 m2 -> keys_unique m1 -> keys_unique m2 -> mux_serve m1 url = mux_serve m2 url.
Theorem C11_mux_order : C11_mux_order_statement.
Proof. intros m1 m2 url He _. now apply mux_serve_equiv. Qed.
Print Assumptions C11_mux_order.

Example C11_example :
  let ops := [RAdd (L "/users/{id}/a") []; RAdd (L "/users/{id}/b") []; RAdd (L "/a") []; RAdd (L "/a/") [];
              RHandle (L "/static/") 7; RRemove (L "/a")] in
  universe_ok [L "/users/{id}/a"; L "/users/{id}/b"; L "/a"; L "/a/"] [L "/static/"] = true /\
  ops_ok [L "/users/{id}/a"; L "/users/{id}/b"; L "/a"; L "/a/"] [L "/static/"] cs_init ops = true /\
  map fst (cs_mux (fst (cs_run cs_init ops 0))) = [L "/users/"; L "/a/"; L "/static/"].
Proof. vm_compute. repeat split. Qed.

(* histories in which the caller recovered from refused calls (a Handle on a pattern that is taken panics in the mux)
   and went on using the container: the registration state is that of the history WITHOUT the refused calls, and it
   fails iff that history fails — so C11 above speaks about these histories too *)
Definition C11_refused_calls_statement : Prop :=
  forall ops s k anom,
    fst (fst (cs_run_skip s ops k anom)) = fst (cs_run s (accepted_ops ops) 0) /\
    (snd (fst (cs_run_skip s ops k anom)) = None <-> snd (cs_run s (accepted_ops ops) 0) = None).
Theorem C11_refused_calls : C11_refused_calls_statement.
Proof. exact run_skip_is_run_of_accepted. Qed.
Print Assumptions C11_refused_calls.

Example C11_refused_example :
  let ops := [(false, RAdd (L "/a") []); (false, RHandle (L "/static/") 7); (true, RHandle (L "/static/") 8);
              (false, RRemove (L "/a"))] in
  cs_run_skip cs_init ops 0 0 = (fst (cs_run cs_init (accepted_ops ops) 0), None, 0) /\
  map fst (cs_mux (fst (cs_run cs_init (accepted_ops ops) 0))) = [L "/static/"].
Proof. vm_compute. split; reflexivity. Qed.

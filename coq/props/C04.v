(* C04 — path parameters are bound to exactly the URL text they stand for. *)
From Model Require Import Str Http Template Table Router.
From Spec Require Import RouteSpec.
From Proofs Require Import ParamProofs JsrProofs.

(* CurlyRouter.  For the route that is invoked (template of the documented
   forms), the parameter map the handler sees is exactly the map built from the
   structural bindings of the full template (root + route) on the path tokens:
   each plain / regex variable -> the segment at its position minus custom
   verb, {v}suffix -> that minus the suffix, tail wildcard -> the remaining
   segments joined by "/"; literals bind nothing, so no other name is bound. *)
Definition C04_curly_statement : Prop :=
  forall (O : oracles) (t : table) (req : request) (w : service) (r : route) (ps : list (str * str)),
    t_router t = Curly ->
    route_request O t req = RInvoke w r ps ->
    wf_route w r = true ->
    ps = pset_all (bindings (route_tpl w r) (tokenize (rq_path req))) [].

Theorem C04_curly : C04_curly_statement.
Proof. exact curly_invoked_params. Qed.
Print Assumptions C04_curly.

(* RouterJSR311.  The parameter map of an invoked route is the map of the structural bindings of root + route
   template on the path's segments (plain / regex variable -> its segment; tail wildcard -> the remaining text,
   a trailing slash included; literals bind nothing) — provided the compiled expressions and their VarNames are the
   structural reading of the two templates ([jsr_tokens_agree], [jsr_names_agree]: booleans that hold for the
   documented forms and are evaluated on every generated case). *)
Definition C04_jsr_statement : Prop :=
  forall (O : oracles) (t : table) (req : request) (w : service) (r : route) (ps : list (str * str)),
    t_router t = Jsr311 -> route_request O t req = RInvoke w r ps ->
    jsr_tokens_agree w r = true -> jsr_names_agree w r = true ->
    ps = fold_left (fun m kv => pset (fst kv) (snd kv) m) (jsr_route_bindings w r (rq_path req)) [].
Theorem C04_jsr : C04_jsr_statement.
Proof. exact jsr_invoked_params. Qed.
Print Assumptions C04_jsr.

Example C04_example :
  let O := {| o_lower := lower_ascii; o_rx := fun _ _ => true; o_rxfull := fun _ _ => false |} in
  let mk id (m rel : string) := {| r_id := id; r_method := L m; r_rel := L rel; r_consumes := []; r_produces := [];
                        r_conds := []; r_noct := []; r_enc := None |} in
  let w := {| s_root := L "/u/{uid}"; s_routes := [mk 1%Z "GET"%string "/{name}.json/{rest:*}"%string; mk 2%Z "GET"%string "/{id:[0-9]+}:cancel"%string] |} in
  let t := {| t_router := Curly; t_services := [w] |} in
  let rq (p : string) := {| rq_method := L "GET"; rq_path := L p; rq_headers := []; rq_clen := 0 |} in
  forallb (wf_route w) (s_routes w) = true
  /\ (match route_request O t (rq "/u/7/bob.json/x/y/"%string) with RInvoke _ _ ps => ps | _ => [] end)
     = [(L "uid", L "7"); (L "name", L "bob"); (L "rest", L "x/y")]
  /\ (match route_request O t (rq "/u/7/42:cancel"%string) with RInvoke _ _ ps => ps | _ => [] end)
     = [(L "uid", L "7"); (L "id", L "42")].
Proof. vm_compute. repeat split. Qed.

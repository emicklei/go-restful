(* C14 — by default a trailing slash on the request path changes nothing. *)
From Model Require Import Str Http Template Table Router Registry Options.
From Spec Require Import RouteSpec.
From Proofs Require Import TemplateFacts RouterProofs SlashJsrProofs.

(* CurlyRouter, all templates (well-formed or not), every table and request:
   for a path p with at least one non-slash byte, p and p ++ "/" have the same
   outcome in everything routing decides — the route invoked, its parameter
   values, or the error status with its Allow list.  ([route_request] returns
   exactly these.)  Conditions are functions of the request other than the
   trailing slash: the same boolean table serves both requests. *)
Definition C14_curly_statement : Prop :=
  forall (O : oracles) (t : table) (req : request) (p : str),
    t_router t = Curly ->
    existsb (fun x => negb (Ascii.eqb x slash)) p = true ->
    route_request O t (with_path req (p ++ [slash])) = route_request O t (with_path req p).

Theorem C14_curly : C14_curly_statement.
Proof. intros O t req p Ht Hp. apply curly_route_request_tokens; [exact Ht|]. now apply tokenize_trailing_slash. Qed.
Print Assumptions C14_curly.

(* the underlying fact about tokenizePath *)
Definition C14_tokenize_statement : Prop :=
  forall p, existsb (fun x => negb (Ascii.eqb x slash)) p = true -> tokenize (p ++ [slash]) = tokenize p.
Theorem C14_tokenize : C14_tokenize_statement.
Proof. exact tokenize_trailing_slash. Qed.
Print Assumptions C14_tokenize.

Example C14_example :
  tokenize (L "/a/b/") = tokenize (L "/a/b") /\ tokenize (L "/a/b") = [L "a"; L "b"]
  /\ tokenize (L "") <> tokenize (L "/").   (* why the path needs a non-slash byte *)
Proof. vm_compute. repeat split; discriminate. Qed.

(* RouterJSR311, on the tables the property names for it: no tail wildcard, regex variables that do not match the
   empty string ([table_plain], evaluated on every generated case): for every path p that is not empty and does not
   end in a slash, routing p and p + "/" gives the same outcome — the same route function with the same parameters,
   or the same error with the same Allow list. *)
Definition C14_jsr_statement : Prop :=
  forall (O : oracles) (t : table) (req : request) (p : str),
    t_router t = Jsr311 -> table_plain O t = true -> ends_slash p = false -> p <> [] ->
    route_request O t (with_path req (p ++ [slash])) = route_request O t (with_path req p).
Theorem C14_jsr : C14_jsr_statement.
Proof. intros O t req p Ht Hpl He _. now apply jsr_trailing_slash. Qed.
Print Assumptions C14_jsr.

(* Through Container.ServeHTTP, for the container state reached by ANY registration history (the Registry model of
   C11: Add / Remove / Route / RemoveRoute / Handle in any order): whenever the mux hands both p and p/ to the
   container's dispatch, the two answers are the same.  (Which patterns the container registers is what decides
   that premise; the check evaluates it with the same model and demands equal answers from the implementation.) *)
Definition C14_servehttp_statement : Prop :=
  forall (O : oracles) (s : cstate) (req : request) (p : str),
    existsb (fun x => negb (Ascii.eqb x slash)) p = true ->
    mux_serve (cs_mux s) p = MTarget TDispatch ->
    mux_serve (cs_mux s) (p ++ [slash]) = MTarget TDispatch ->
    serve_http O Curly s (with_path req (p ++ [slash])) = serve_http O Curly s (with_path req p).
Theorem C14_servehttp : C14_servehttp_statement.
Proof.
  intros O s req p Hp H1 H2. unfold serve_http. cbn [rq_path with_path]. rewrite H1, H2. f_equal.
  now apply C14_curly.
Qed.
Print Assumptions C14_servehttp.

Definition C14_servehttp_jsr_statement : Prop :=
  forall (O : oracles) (s : cstate) (req : request) (p : str),
    table_plain O (cs_table Jsr311 s) = true -> ends_slash p = false -> p <> [] ->
    mux_serve (cs_mux s) p = MTarget TDispatch ->
    mux_serve (cs_mux s) (p ++ [slash]) = MTarget TDispatch ->
    serve_http O Jsr311 s (with_path req (p ++ [slash])) = serve_http O Jsr311 s (with_path req p).
Theorem C14_servehttp_jsr : C14_servehttp_jsr_statement.
Proof.
  intros O s req p Ht He Hne H1 H2. unfold serve_http. cbn [rq_path with_path]. rewrite H1, H2. f_equal.
  now apply C14_jsr.
Qed.
Print Assumptions C14_servehttp_jsr.

(* "the same Allow header", for the list the OPTIONS filter (and a CORS preflight without configured methods) computes:
   on tables in which no token may match the empty string — no tail wildcard, no regular expression admitting ""
   ([table_plain], evaluated on every generated case) — computeAllowedMethods gives the same list for p and p + "/". *)
Definition C14_options_list_statement : Prop :=
  forall (O : oracles) (t : table) (p : str),
    table_plain O t = true -> ends_slash p = false -> p <> [] ->
    compute_allowed_methods O t (p ++ [slash]) = compute_allowed_methods O t p.
Theorem C14_options_list : C14_options_list_statement.
Proof. intros O t p Hpl He _. now apply allowed_methods_trailing_slash. Qed.
Print Assumptions C14_options_list.

(* without that premise it is FALSE of the faithful model and of the code (known finding K-C14-1): the compiled
   expression of /users/{w:*} accepts "/users/" with an empty tail and not "/users", while CurlyRouter answers both 404 *)
Definition C14_options_list_all_tables_statement : Prop :=
  forall (O : oracles) (t : table) (p : str),
    ends_slash p = false -> p <> [] ->
    compute_allowed_methods O t (p ++ [slash]) = compute_allowed_methods O t p.
Theorem C14_refuted_options_list_tail : ~ C14_options_list_all_tables_statement.
Proof.
  intros H.
  specialize (H {| o_lower := lower_ascii; o_rx := fun _ _ => false; o_rxfull := fun _ _ => false |}
                {| t_router := Curly; t_services := [ {| s_root := L "/"; s_routes :=
                     [ {| r_id := 1; r_method := L "GET"; r_rel := L "/users/{w:*}"; r_consumes := []; r_produces := [];
                          r_conds := []; r_noct := []; r_enc := None |} ] |} ] |}
                (L "/users") eq_refl).
  assert (Hne : L "/users" <> []) by discriminate. specialize (H Hne). vm_compute in H. discriminate H.
Qed.
Print Assumptions C14_refuted_options_list_tail.

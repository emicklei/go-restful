(* C02 — every request gets exactly one outcome; 404/405/415/406 are exact. *)
From Model Require Import Str Http Table DetectRoute Router.
From Spec Require Import RouteSpec.
From Proofs Require Import OutcomeProofs JsrProofs JsrOutcomeProofs.

(* CurlyRouter.  For every regex oracle, table and request such that the routes
   of the service the URL belongs to use the documented template forms:
   routing never panics, and the observable outcome (a route function ran /
   error response, status, Allow, which function) meets the declarative cascade
   [spec_cascade] computed over the SET of routes of that service whose template
   admits the path: nothing admits or passes its conditions -> 404; no method
   match -> 405 with exactly the methods of those routes; no Consumes match and a
   body is sent -> 415; nothing left after Accept and a bodiless POST/PUT/PATCH
   -> 415; else 406; otherwise exactly one function of the surviving routes runs.
   The model value [routed] has exactly one of the shapes invoke / error / panic,
   and an invoke runs one function once. *)
Definition C02_curly_statement : Prop :=
  forall (O : oracles) (t : table) (req : request),
    t_router t = Curly -> best_wf O t req = true ->
    route_request O t req <> RPanic /\
    meets (curly_expected O t req) (routed_view (route_request O t req)) = true.

Theorem C02_curly : C02_curly_statement.
Proof. exact curly_outcome_exact. Qed.
Print Assumptions C02_curly.

(* detectRoute (shared by both routers) is the cascade on any candidate list, and the
   cascade does not depend on the order of the candidates *)
Definition C02_detect_statement : Prop :=
  (forall l req, meets (spec_cascade l req) (detect_view (detect_route l req)) = true) /\
  (forall l l' req v, Permutation.Permutation l l' ->
       meets (spec_cascade l req) v = meets (spec_cascade l' req) v).
Theorem C02_detect : C02_detect_statement.
Proof. exact (conj detect_route_meets spec_cascade_perm). Qed.
Print Assumptions C02_detect.

(* RouterJSR311: a selected route can always be given its parameters (the nil-slice index of ExtractParameters is
   unreachable): routing never panics under the second router either. *)
Definition C02_jsr_no_panic_statement : Prop :=
  forall (O : oracles) (t : table) (req : request) (w : service) (r : route),
    t_router t = Jsr311 -> select_route O t req = inl (w, r) -> route_request O t req <> RPanic.
Theorem C02_jsr_no_panic : C02_jsr_no_panic_statement.
Proof.
  intros O t req w r Ht Hs. destruct (jsr_select_route_inl O t req w r Ht Hs) as (c1 & fin & _ & _ & _ & _ & Hm1 & _).
  pose proof (jsr_extract_total O t w r _ c1 fin Ht Hm1) as He. unfold route_request. rewrite Hs.
  destruct (extract_parameters O t w r (rq_path req)); [discriminate|contradiction].
Qed.
Print Assumptions C02_jsr_no_panic.

(* RouterJSR311, the full cascade.  For every oracle, table and request such that the templates of the service the
   URL belongs to are read structurally by path_expression.go ([jsr_best_agree]): routing never panics and the
   observable outcome meets the declarative cascade computed over the SET of routes of that service whose
   template admits the path in RouterJSR311's reading (the matcher is sound AND complete for that reading). *)
Definition C02_jsr_statement : Prop :=
  forall (O : oracles) (t : table) (req : request),
    t_router t = Jsr311 -> jsr_best_agree O t req = true ->
    route_request O t req <> RPanic /\
    meets (jsr_expected O t req) (routed_view (route_request O t req)) = true.
Theorem C02_jsr : C02_jsr_statement.
Proof. exact jsr_outcome_exact. Qed.
Print Assumptions C02_jsr.

Example C02_example :
  let O := {| o_lower := lower_ascii; o_rx := fun _ _ => true; o_rxfull := fun _ _ => false |} in
  let mk id (m rel : string) cons := {| r_id := id; r_method := L m; r_rel := L rel; r_consumes := cons; r_produces := [L "application/json"];
                        r_conds := []; r_noct := []; r_enc := None |} in
  let w := {| s_root := L "/a"; s_routes := [mk 1%Z "GET"%string "/{v}"%string []; mk 2%Z "POST"%string "/{v}"%string [L "application/json"]] |} in
  let t := {| t_router := Curly; t_services := [w] |} in
  let rq (m p : string) hs cl := {| rq_method := L m; rq_path := L p; rq_headers := hs; rq_clen := cl |} in
  best_wf O t (rq "GET"%string "/a/x"%string [] 0%Z) = true
  /\ routed_view (route_request O t (rq "PUT"%string "/a/x"%string [] 0%Z)) = (1, 405, [L "GET"; L "POST"], [])%Z
  /\ routed_view (route_request O t (rq "POST"%string "/a/x"%string [(H_ContentType, L "text/plain"); (H_ContentLength, L "3")] 3%Z)) = (1, 415, [], [])%Z
  /\ routed_view (route_request O t (rq "GET"%string "/a/x"%string [(H_Accept, L "text/html")] 0%Z)) = (1, 406, [], [])%Z
  /\ routed_view (route_request O t (rq "GET"%string "/a/x/y"%string [] 0%Z)) = (1, 404, [], [])%Z
  /\ routed_view (route_request O t (rq "GET"%string "/a/x"%string [] 0%Z)) = (0, 200, [], [1])%Z.
Proof. vm_compute. repeat split. Qed.

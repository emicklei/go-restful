(* C08 — CORS headers are granted only to allowed origins, echoing the origin. *)
From Model Require Import Str Http Cors.
From Spec Require Import CorsSpec.
From Proofs Require Import CorsProofs.

(* For every oracle (i.e. whatever strings.ToLower does), configuration,
   container method table and request: *)
Definition C08_statement : Prop :=
  forall (O : oracles) (c : cors_cfg) (computed : list str) (req : request),
    let origin := hget req H_Origin in
    let hs := fst (cors_decide O c computed req) in
    (* the filter adds nothing but Access-Control-* headers ... *)
    (forall k v, In (k, v) hs -> is_grant_name k = true) /\
    (* ... and only for an origin the configuration allows *)
    (hs <> [] -> allowed O c origin) /\
    (* when it grants, Allow-Origin appears exactly once and is the origin verbatim *)
    (hs <> [] -> count_key H_ACAllowOrigin hs = 1) /\
    (forall v, In (H_ACAllowOrigin, v) hs -> v = origin) /\
    (* credentials only if configured *)
    (forall v, In (H_ACAllowCredentials, v) hs -> c_cookies c = true) /\
    (* no Origin, or a disallowed one: the request is processed exactly as if the
       filter were absent, whatever the rest of the chain does *)
    (~ allowed O c origin ->
     forall (resp : Type) (add : headers -> resp -> resp) (r : resp)
            (next : request -> resp -> resp),
       (forall r0, add [] r0 = r0) ->
       cors_filter O add c computed req r next = next req r).

Theorem C08 : C08_statement.
Proof.
  intros O c computed req origin hs.
  destruct (cors_decide_menu O c computed req) as [Hin Hne]. fold origin hs in Hin, Hne.
  refine (conj _ (conj _ (conj _ (conj _ (conj _ _))))).
  - intros k v H%Hin. exact (grant_keys O _ _ _ _ _ _ _ H).
  - intros H. apply is_origin_allowed_spec. exact (proj1 (Hne H)).
  - intros H. destruct (Hne H) as [Ha ->]. now apply grant_origin_count.
  - intros v H%Hin. now destruct (enabled_row _ _ _ _ _ H (origin_row O c origin _ _ _) grant_names_nodup) as [_ ->].
  - intros v H%Hin. now destruct (enabled_row _ _ _ _ _ H (credentials_row O c origin _ _ _) grant_names_nodup) as [<- _].
  - intros Hn resp add r next Hadd. unfold cors_filter. rewrite cors_decide_eq. fold origin.
    destruct (is_origin_allowed O c origin) eqn:E; [now apply is_origin_allowed_spec in E|]. apply f_equal, Hadd.
Qed.
Print Assumptions C08.

(* non-vacuity: a configuration with a list, an allowed and a refused origin *)
Example C08_example :
  let O := {| o_lower := lower_ascii; o_rx := fun _ _ => false; o_rxfull := fun _ _ => false |} in
  let c := {| c_expose := []; c_headers := []; c_domains := [L "http://a.example"];
              c_func := None; c_methods := [L "GET"]; c_maxage := 0; c_cookies := true |} in
  let rq (o : string) := {| rq_method := L "GET"; rq_path := L "/"; rq_headers := [(H_Origin, L o)]; rq_clen := 0 |} in
  fst (cors_decide O c [] (rq "HTTP://A.example"%string))
    = [(H_ACAllowOrigin, L "HTTP://A.example"); (H_ACAllowCredentials, L "true")]
  /\ fst (cors_decide O c [] (rq "http://a.example.evil"%string)) = [].
Proof. vm_compute. split; reflexivity. Qed.

(* C06 — filters run container, service, route, in order, each once, per request. *)
From Model Require Import Str Http Router Dispatch.
From Spec Require Import DispatchSpec.
From Proofs Require Import DispatchProofs ServeProofs WrapperProofs.

(* The chain (filter.go ProcessFilter), for ANY list of filter scripts that do not panic and pass
   control on at most once, and any target that returns normally: it returns normally, and the
   structural events it appends are exactly [chain_events]: pre f1 .. pre fk [target iff none
   stopped] post fk .. post f1, each filter at most once, nothing after a filter that does not pass on. *)
Definition C06_chain_statement : Prop :=
  forall (fs : list fscript) (target : rstate -> res) (tgt : list str) (s : rstate),
    forallb fscript_panic_free fs = true ->
    (forall s0, exists s1, target s0 = Done s1 /\ slog s1 = slog s0 ++ tgt) ->
    exists s', run_chain fs target s = Done s' /\ slog s' = slog s ++ chain_events fs tgt.
Theorem C06_chain : C06_chain_statement.
Proof. exact run_chain_events. Qed.
Print Assumptions C06_chain.

(* A whole request, through Dispatch and through ServeHTTP, for both routers, every table,
   every number of filters at each level and every choice of which filter stops, no script
   panicking ([cfg_has_panic]; panics are C10): the structural events are the container
   filters, then the selected service's, then the
   selected route's, then the route function ("H:<id>"), then the posts in reverse; for a
   request that fails routing, exactly the container filters around the error writer and no
   service or route filter ([expected_events]).  The chain is built inside dispatch from
   the configuration: the statement holds from ANY starting state [s], so nothing an
   earlier request left behind can change it.  ([routed_request]: the path is not one a plain handler was
   registered on with Handle / HandleWithFilter; those are C06_plain.) *)
Definition C06_request_statement : Prop :=
  forall (O : oracles) (cfg : dcfg) (en : entry) (req : request) (s : rstate),
    routed_request cfg req -> cfg_has_panic cfg = false ->
    route_request O (d_table cfg) req <> RPanic ->
    exists s', serve O cfg en req s = Done s' /\ slog s' = slog s ++ expected_events O cfg req.
Theorem C06_request : C06_request_statement.
Proof. exact serve_events. Qed.
Print Assumptions C06_request.

(* HandleWithFilter: exactly the container filters, once, in order, around the plain http.Handler (Handle: none) *)
Definition C06_plain_statement : Prop :=
  forall (cfg : dcfg) (wf : bool) (script : list action) (req : request) (s : rstate),
    forallb fscript_panic_free (d_cfilters cfg) = true -> panic_free script = true ->
    exists s', handle_plain cfg wf script req s = Done s' /\
               slog s' = slog s ++ (if wf then chain_events (d_cfilters cfg) [] else []).
Theorem C06_plain : C06_plain_statement.
Proof.
  intros cfg wf script req s Hc Hs. rewrite handle_plain_eq.
  destruct (run_chain_events (if wf then d_cfilters cfg else []) (run_actions script) []
              (install_wanted (has_comp s) (d_encoding cfg) req s)) as (s2 & -> & L2).
  - now destruct wf.
  - intros s0. destruct (slog_run_actions script s0 Hs) as (s2 & E & L2). exists s2. now rewrite app_nil_r.
  - eexists. split; [reflexivity|]. rewrite slog_close_comp, L2, slog_install_wanted. now destruct wf.
Qed.
Print Assumptions C06_plain.

(* Attributes (and, under two reserved keys, the path parameters and the selected route) are ONE map threaded
   through container filters, service filters, route filters, the route function and back: what a stage sets is
   what every later stage sees — for filters that pass on the wrapper they were given. *)
Definition C06_attributes_statement : Prop :=
  forall (O : oracles) (cfg : dcfg) (req : request) (already : bool) (s : rstate),
    cfg_has_panic cfg = false -> cfg_has_fresh cfg = false ->
    route_request O (d_table cfg) req <> RPanic ->
    (match route_request O (d_table cfg) req with RError _ => st_attrs s = [] | _ => True end) ->
    exists s', dispatch O cfg req already s = Done s' /\ vlog s' = vlog s ++ expected_sees O cfg req.
Theorem C06_attributes : C06_attributes_statement.
Proof. exact dispatch_sees. Qed.
Print Assumptions C06_attributes.

Example C06_example :
  let f (id : string) pass := {| f_id := L id; f_pre := []; f_pass := pass; f_post := []; f_fresh := false; f_mw := 0; f_wrap := false |} in
  chain_events [f "c0"%string true; f "s0"%string true; f "r0"%string false; f "r1"%string true] [L "H:1"]
  = [L "pre:c0"; L "pre:s0"; L "pre:r0"; L "post:r0"; L "post:s0"; L "post:c0"]
  /\ chain_events [f "c0"%string true; f "s0"%string true] [L "H:1"]
  = [L "pre:c0"; L "pre:s0"; L "H:1"; L "post:s0"; L "post:c0"].
Proof. split; reflexivity. Qed.

(* the response a filter passes on is the one later stages write to (model): a filter that passes on a Response around an
   upper-casing writer — the route function's bytes and its entity come out upper-cased and indented (a new wrapper
   starts with the pretty-print default, whatever the outer one was switched to), the wrapping filter's own later bytes
   do not, and the outer switch is still off afterwards *)
Example C06_wrapped_response_example :
  let wrapf := {| f_id := L "w"; f_pre := [APretty false]; f_pass := true; f_post := [AWrite (L "<tail>"); AEntity (L "c") (L "p")];
                  f_fresh := false; f_mw := 0; f_wrap := true |} in
  let r := run_chain [wrapf] (run_actions [AWrite (L "<body>"); AEntity (L "compact") (L "pretty")]) (st0 []) in
  st_raw (state_of r) = [L "<BODY>"; L "PRETTY"; L "<tail>"; L "c"] /\ st_upper (state_of r) = 0 /\ st_pretty (state_of r) = false.
Proof. vm_compute. repeat split. Qed.

(* "the request/response pair a filter passes on are the ones later filters and the handler receive", the response
   half: a filter may pass on a Response around a writer of its own (the model's wrapping filters put an upper-casing
   writer in between).  That wrapper is in force for exactly what follows in the chain: whatever wrapping filters a
   chain contains, when it returns normally the stack of wrappers is the one it was entered with — every filter
   finishes on its own response. *)
Definition C06_wrapper_scope_statement : Prop :=
  forall (fs : list fscript) (target : rstate -> res) (s s' : rstate),
    (forall s0 s1, target s0 = Done s1 -> st_upper s1 = st_upper s0) ->
    run_chain fs target s = Done s' -> st_upper s' = st_upper s.
Theorem C06_wrapper_scope : C06_wrapper_scope_statement.
Proof.
  intros fs. induction fs as [|f rest IH]; intros target s s' Ht; [apply Ht|]. rewrite run_chain_cons.
  pose proof (upper_run_actions (f_pre f) (upd_log s (L "pre:" ++ f_id f))) as Hpre.
  destruct (run_actions (f_pre f) (upd_log s (L "pre:" ++ f_id f))) as [s1|m s1]; cbn [bind state_of] in *; [|discriminate].
  change (st_upper s1 = st_upper s) in Hpre. rewrite <- Hpre.
  destruct (f_pass f); [|apply upper_finish].
  destruct (run_chain rest target (enter f s1)) as [s2|m s2] eqn:E2; cbn [bind]; [|discriminate].
  intros H. rewrite (upper_finish _ _ _ H). exact (upper_leave f s1 s2 (IH target _ _ Ht E2)).
Qed.
Print Assumptions C06_wrapper_scope.

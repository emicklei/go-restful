(* C01 — a route function runs only for requests its declaration admits. *)
From Model Require Import Str Http Table Curly DetectRoute Router.
From Spec Require Import RouteSpec.
From Proofs Require Import RouterProofs JsrProofs.

(* CurlyRouter (the default router).  For every regex oracle, table, request:
   if dispatch invokes the function of route r of service w, then w and r are
   registered, and — r's template being one of the documented forms — the
   request is admitted by r's declaration: method equal, path admitted by the
   full template (literals equal, regex variables satisfied, suffixes present,
   custom verb equal, same number of segments unless a tail wildcard ends the
   template), Content-Type admitted by Consumes, Accept satisfiable from
   Produces, all conditions true.  [RInvoke w r ps] carries the selected route
   that filters and handler see: it is r itself. *)
Definition C01_curly_statement : Prop :=
  forall (O : oracles) (t : table) (req : request) (w : service) (r : route) (ps : list (str * str)),
    t_router t = Curly ->
    route_request O t req = RInvoke w r ps ->
    In w (t_services t) /\ In r (s_routes w) /\
    (wf_route w r = true -> admits O w r req = true).

Theorem C01_curly : C01_curly_statement.
Proof. exact curly_invoked_admits. Qed.
Print Assumptions C01_curly.

(* the matcher decides exactly the structural admission — soundness AND completeness *)
Definition C01_matcher_statement : Prop :=
  forall (O : oracles) (hcv : bool) (template_tokens path_tokens : list str),
    wf_template hcv template_tokens = true ->
    CurlyProofs.is_some (matches_route_by_path_tokens O template_tokens path_tokens hcv)
    = admits_path O (map (parse_tok hcv) template_tokens) path_tokens.
Theorem C01_matcher : C01_matcher_statement.
Proof.
  intros O hcv rts qts Hwf. rewrite (CurlyProofs.matches_route_spec O hcv rts qts Hwf). now destruct (admits_path O _ qts).
Qed.
Print Assumptions C01_matcher.

(* non-vacuity: a well-formed table with overlapping templates, an admitted and
   a refused request *)
Example C01_example :
  let O := {| o_lower := lower_ascii; o_rx := fun re s => str_eqb re (L "[0-9]+") && forallb (fun c => N.leb 48 (N_of_ascii c) && N.leb (N_of_ascii c) 57) s && negb (str_eqb s []);
              o_rxfull := fun _ _ => false |} in
  let mk id (m rel : string) := {| r_id := id; r_method := L m; r_rel := L rel; r_consumes := []; r_produces := [];
                        r_conds := []; r_noct := []; r_enc := None |} in
  let w := {| s_root := L "/users"%string; s_routes := [mk 1%Z "GET"%string "/{id:[0-9]+}"%string; mk 2%Z "GET"%string "/{name}.json/meta"%string; mk 3%Z "GET"%string "/files/{rest:*}"%string] |} in
  let t := {| t_router := Curly; t_services := [w] |} in
  let rq (p : string) := {| rq_method := L "GET"%string; rq_path := L p; rq_headers := []; rq_clen := 0 |} in
  forallb (wf_route w) (s_routes w) = true
  /\ (match route_request O t (rq "/users/42"%string) with RInvoke _ r _ => r_id r | _ => 0%Z end) = 1%Z
  /\ (match route_request O t (rq "/users/bob.json/meta"%string) with RInvoke _ r _ => r_id r | _ => 0%Z end) = 2%Z
  /\ (match route_request O t (rq "/users/files/a/b"%string) with RInvoke _ r ps => r_id r | _ => 0%Z end) = 3%Z
  /\ (match route_request O t (rq "/users/bob"%string) with RError E404 => true | _ => false end) = true.
Proof. vm_compute. repeat split. Qed.

(* RouterJSR311.  For every regex oracle, table and request: if SelectRoute returns route r of service w then
   both are registered and the request is admitted by r's declaration in RouterJSR311's reading (method, every
   segment of root + route template: literal equal, plain variable non-empty, regex variable matched entirely,
   tail wildcard last; one trailing slash tolerated; Consumes, Produces, conditions) — provided the expressions
   compiled from the two templates are their structural reading token by token ([jsr_tokens_agree], a boolean that
   holds for the documented forms and is evaluated on every generated case). *)
Definition C01_jsr_statement : Prop :=
  forall (O : oracles) (t : table) (req : request) (w : service) (r : route),
    t_router t = Jsr311 -> select_route O t req = inl (w, r) -> jsr_tokens_agree w r = true ->
    In w (t_services t) /\ In r (s_routes w) /\ jsr_admits O w r req = true.
Theorem C01_jsr : C01_jsr_statement.
Proof. exact jsr_select_route_sound. Qed.
Print Assumptions C01_jsr.

Example C01_jsr_example :
  let w := {| s_root := L "/users/{id:[0-9]+}"; s_routes := [] |} in
  let r := {| r_id := 1; r_method := L "GET"; r_rel := L "/files/{rest:*}"; r_consumes := []; r_produces := [];
              r_conds := []; r_noct := []; r_enc := None |} in
  jsr_tokens_agree w r = true.
Proof. reflexivity. Qed.
